(* The judgement behind every round-trip proof: [decodes p o e rest Q] says that p, started at offset o
   on the encoding e followed by rest, consumes exactly e and returns a value satisfying Q.
   The rules follow the parser term; their conclusions leave Q arbitrary, so a derivation is a chain of
   [apply]s in which the postcondition of a field is the judgement for the fields that follow it.
   Offsets are threaded by the rules and never appear in a derivation. *)
From TlsModel Require Import Nom Wire BytesLemmas NomGeneric RunLemmas ManyLemmas MultiRecordProofs.
From Coq Require Import Lia.

Definition decodes {A} (p : P A) (o : N) (e rest : list byte) (Q : A -> Prop) : Prop :=
  exists v, run p (mkS o (e ++ rest)) = Ok (mkS (o + lenN e) rest) v /\ Q v.

(* The judgement is made opaque at the end of this file, so that `apply` of a rule that does not fit fails at once
   instead of comparing two runs of the interpreter.  `exists` and `destruct` still see through it (they are its
   introduction and elimination outside the rules); this lemma is the elimination for `apply .. in`. *)
Lemma dec_elim A (p : P A) o e rest Q :
  decodes p o e rest Q -> exists v, run p (mkS o (e ++ rest)) = Ok (mkS (o + lenN e) rest) v /\ Q v.
Proof. exact (fun H => H). Qed.

Lemma dec_weaken A (p : P A) o e rest (Q Q' : A -> Prop) :
  decodes p o e rest Q -> (forall v, Q v -> Q' v) -> decodes p o e rest Q'.
Proof. intros [v [E H]] HQ. exists v. auto. Qed.

Lemma roundtrips_dec A B (p : P A) (enc : B -> list byte) (wf : B -> Prop) (eqv : A -> B -> Prop) :
  (forall v o rest, wf v -> decodes p o (enc v) rest (fun v' => eqv v' v)) -> roundtrips p enc wf eqv.
Proof. intros H v rest o Hw. exact (H v o rest Hw). Qed.

Lemma dec_ret A (a : A) o rest (Q : A -> Prop) : Q a -> decodes (Ret a) o [] rest Q.
Proof. intros H. exists a. split; [|exact H].  now rewrite N.add_0_r. Qed.

Lemma dec_bind A B (p : P A) (k : A -> P B) o e1 e2 rest Q :
  decodes p o e1 (e2 ++ rest) (fun v => decodes (k v) (o + lenN e1) e2 rest Q) ->
  decodes (Bind p k) o (e1 ++ e2) rest Q.
Proof.
  intros [v [E [w [E' H]]]]. exists w. split; [|exact H].
  rewrite run_bind, <- app_assoc, E, E', lenN_app, N.add_assoc. reflexivity.
Qed.

Lemma dec_ret_bind A B (a : A) (k : A -> P B) o e rest Q :
  decodes (k a) o e rest Q -> decodes (Bind (Ret a) k) o e rest Q.
Proof. exact (fun H => H). Qed.

(* a sub-parser that reads several fields is flattened into the sequence *)
Lemma dec_bind_assoc A B C (p : P A) (f : A -> P B) (g : B -> P C) o e rest Q :
  decodes (Bind p (fun x => Bind (f x) g)) o e rest Q -> decodes (Bind (Bind p f) g) o e rest Q.
Proof. unfold decodes. now rewrite run_bind_assoc. Qed.

(* the last field: the continuation reads nothing more *)
Lemma dec_last A B (p : P A) (k : A -> P B) o e rest Q :
  decodes p o e rest (fun v => decodes (k v) (o + lenN e) [] rest Q) -> decodes (Bind p k) o e rest Q.
Proof. intros H. rewrite <- (app_nil_r e). exact (dec_bind _ _ p k o e [] rest Q H). Qed.

Lemma dec_pmap A B (p : P A) (f : A -> B) o e rest Q :
  decodes p o e rest (fun v => Q (f v)) -> decodes (pmap p f) o e rest Q.
Proof. intros H. apply dec_last. eapply dec_weaken; [exact H|]. intros v HQ. now apply dec_ret. Qed.

Lemma dec_beu k v o rest (Q : N -> Prop) :
  v < 256 ^ N.of_nat k -> Q v -> decodes (BeU k) o (be_enc k v) rest Q.
Proof. intros Hv HQ. exists v. split; [|exact HQ]. now rewrite run_beu_enc, lenN_be_enc by exact Hv. Qed.

Lemma dec_take n b o rest (Q : slice -> Prop) : lenN b = n -> Q (mkS o b) -> decodes (Take n) o b rest Q.
Proof. intros <- HQ. exists (mkS o b). split; [apply run_take_app; reflexivity | exact HQ]. Qed.

Lemma dec_vec k b o rest (Q : slice -> Prop) :
  lenN b < 256 ^ N.of_nat k -> Q (mkS (o + N.of_nat k) b) ->
  decodes (length_data (BeU k)) o (be_enc k (lenN b) ++ b) rest Q.
Proof.
  intros Hb HQ. apply dec_bind, dec_beu; [exact Hb|]. rewrite lenN_be_enc. now apply dec_take.
Qed.

(* A field read by a primitive parser: the rule is fixed by the parser term (unification finds the width k behind
   `be_u16`, `u16`, `vec16`) and the side condition is a bound that the well-formedness hypotheses state (as `v < 65536`,
   which is `v < 256 ^ N.of_nat 2` up to computation); what a derivation spells out is everything else. *)
Ltac dec_field :=
  (apply dec_bind + apply dec_last);
  first [apply dec_beu | apply dec_vec | apply dec_take];
  [first [assumption | reflexivity | unfold slen in *; lia] |].

Lemma dec_geti B (k : slice -> P B) o e rest Q :
  decodes (k (mkS o (e ++ rest))) o e rest Q -> decodes (Bind GetI k) o e rest Q.
Proof. intros [v [E H]]. exists v. split; [|exact H]. now rewrite run_bind, run_geti. Qed.

(* the guarded split by index of the hand-indexed list decoders ([run_checked_idx]), on exactly the bytes announced *)
Lemma dec_checked_idx A bad (k : slice -> P A) b o rest Q : bad = false ->
  decodes (k (mkS o b)) (o + lenN b) [] rest Q ->
  decodes (let* j := GetI in
           if bad || negb (has_len (bytes j) (lenN b)) then ErrK KLengthValue else let* s := Idx (lenN b) in k s) o b rest Q.
Proof.
  intros -> [v [E H]]. exists v. split; [|exact H]. rewrite run_checked_idx. unfold slen, stake, sdrop; cbn [bytes off orb].
  rewrite lenN_app_ge, takeN_app_exact, dropN_app_exact.  now rewrite N.add_0_r in E.
Qed.

Lemma dec_peek A B (p : P A) (k : A -> P B) o e1 e2 rest Q :
  decodes p o e1 (e2 ++ rest) (fun v => decodes (k v) o (e1 ++ e2) rest Q) ->
  decodes (Bind (Peek p) k) o (e1 ++ e2) rest Q.
Proof.
  intros [v [E [w [E' H]]]]. exists w. split; [|exact H].
  rewrite run_bind, run_peek, <- app_assoc, E, app_assoc. exact E'.
Qed.

Lemma dec_cmpl A (p : P A) o e rest Q : decodes p o e rest Q -> decodes (Cmpl p) o e rest Q.
Proof. intros [v [E H]]. exists v. split; [|exact H]. now rewrite run_cmpl, E. Qed.

Lemma dec_vrfy A (p : P A) f o e rest (Q : A -> Prop) :
  decodes p o e rest (fun v => f v = true /\ Q v) -> decodes (Vrfy p f) o e rest Q.
Proof. intros [v [E [Hf H]]]. exists v. split; [|exact H]. now rewrite run_vrfy, E, Hf. Qed.

Lemma dec_opt_some A (p : P A) o e rest (Q : option A -> Prop) :
  decodes p o e rest (fun v => Q (Some v)) -> decodes (Opt p) o e rest Q.
Proof. intros [v [E H]]. exists (Some v). split; [|exact H]. now rewrite run_opt, E. Qed.

(* opt(complete(p)) and alt((complete(p), q)) fall through where p stops *)
Lemma dec_opt_none A (p : P A) o rest (Q : option A -> Prop) :
  stops p (mkS o rest) -> Q None -> decodes (Opt (Cmpl p)) o [] rest Q.
Proof.
  intros Hs HQ. exists None. split; [|exact HQ]. destruct (cmpl_stops p _ Hs) as [s [k E]].
  cbn [app lenN]. now rewrite run_opt, E, N.add_0_r.
Qed.

Lemma dec_alt_l A (p q : P A) o e rest Q : decodes p o e rest Q -> decodes (Alt p q) o e rest Q.
Proof. intros [v [E H]]. exists v. split; [|exact H]. now rewrite run_alt, E. Qed.

Lemma dec_alt_r A (p q : P A) o e rest Q :
  stops p (mkS o (e ++ rest)) -> decodes q o e rest Q -> decodes (Alt (Cmpl p) q) o e rest Q.
Proof.
  intros Hs [v [E H]]. exists v. split; [|exact H]. destruct (cmpl_stops p _ Hs) as [s [k Es]].
  now rewrite run_alt, Es.
Qed.

(* a sub-parser confined to a slice: its remainder is dropped, so it only has to accept the slice *)
Definition accepts {A} (p : P A) (i : slice) (Q : A -> Prop) : Prop := exists r v, run p i = Ok r v /\ Q v.

Lemma dec_accepts A (p : P A) o e Q : decodes p o e [] Q -> accepts p (mkS o e) Q.
Proof. intros [v [E HQ]]. rewrite app_nil_r in E. exists (mkS (o + lenN e) []), v. auto. Qed.

Lemma dec_on A (p : P A) s o rest Q : accepts p s Q -> decodes (On s p) o [] rest Q.
Proof.
  intros [r [v [E HQ]]]. exists v. split; [|exact HQ].  now rewrite run_on, E, N.add_0_r.
Qed.

Lemma dec_map_parser A (f : P slice) (g : P A) o e rest Q :
  decodes f o e rest (fun s => accepts g s Q) -> decodes (map_parser f g) o e rest Q.
Proof. intros H. apply dec_last. eapply dec_weaken; [exact H|]. intros s. apply dec_on. Qed.

Lemma stops_bind_dec A B (p : P A) (k : A -> P B) o e rest :
  decodes p o e rest (fun v => stops (k v) (mkS (o + lenN e) rest)) -> stops (Bind p k) (mkS o (e ++ rest)).
Proof. intros [v [E H]]. unfold stops in *. now rewrite run_bind, E. Qed.
Lemma stops_bind_assoc A B C (p : P A) (f : A -> P B) (g : B -> P C) i :
  stops (Bind p (fun x => Bind (f x) g)) i -> stops (Bind (Bind p f) g) i.
Proof. unfold stops. now rewrite run_bind_assoc. Qed.
(* a confined sub-parser that cannot panic either fails, which stops, or returns whatever it likes *)
Lemma stops_on A B (g : P A) s (k : A -> P B) i : Safe g -> (forall v, stops (k v) i) -> stops (Bind (On s g) k) i.
Proof.
  intros Hs H. unfold stops. rewrite run_bind, run_on. pose proof (Hs s). pose proof (run_no_fail _ g s).
  destruct (run g s); try tauto. apply H.
Qed.

Lemma dec_many0 A B (p : P A) (enc : B -> list byte) wf eqv vs o tail (Q : list A -> Prop) :
  roundtrips p enc wf eqv -> nonempty_enc enc wf -> Forall wf vs ->
  stops p (mkS (o + lenN (cat enc vs)) tail) ->
  (forall vs', Forall2 eqv vs' vs -> Q vs') ->
  decodes (Many0 (Cmpl p)) o (cat enc vs) tail Q.
Proof.
  intros Hrt Hne Hw Hs HQ. rewrite Forall_forall in Hw.
  destruct (many0_cmpl_rt p enc wf eqv Hrt Hne vs o tail Hw Hs) as [vs' [E HF]]. exists vs'. auto.
Qed.

Lemma Forall2_map_eq A B (f : A -> B) l' l : Forall2 (fun a b => f a = f b) l' l -> map f l' = map f l.
Proof. induction 1 as [|a b l' l H _ IH]; [reflexivity|]. cbn [map]. now rewrite H, IH. Qed.

Lemma dec_items A C (p : P A) (enc : A -> list byte) wf (f : A -> C) l o (Q : list A -> Prop) :
  roundtrips p enc wf (fun a b => f a = f b) -> nonempty_enc enc wf -> (forall j, stops p (mkS j [])) ->
  Forall wf l -> (forall l', map f l' = map f l -> Q l') ->
  accepts (Many0 (Cmpl p)) (mkS o (cat enc l)) Q.
Proof.
  intros Hrt Hne Hst Hw HQ. apply dec_accepts. eapply dec_many0; [exact Hrt | exact Hne | exact Hw | apply Hst|].
  intros l' HF. apply HQ, Forall2_map_eq, HF.
Qed.

#[global] Opaque decodes accepts.
