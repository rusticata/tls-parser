(* C01 (model side): every public parsing entry point, listed by the name of the Rust function, is Safe:
   on no input does its model reach Panic (a Rust panic site: slice index, expect, arithmetic overflow
   modelled as PanicP/Idx) or OutOfFuel (a loop that does not terminate within its input).
   /verif/check compares the names listed here with the `pub fn parse*` of the current source. *)
From Coq Require Import String.
From TlsModel Require Import Extensions Kx Dtls NomGeneric SafeProofs.
Open Scope string_scope.

Inductive pentry := PE : forall A, P A -> pentry.
Definition safe_entry (e : pentry) : Prop := match e with PE _ p => Safe p end.

Definition public_parsers : list (string * pentry) := [
  ("parse_tls_record_header", PE _ parse_tls_record_header);
  ("parse_tls_plaintext", PE _ parse_tls_plaintext);
  ("parse_tls_encrypted", PE _ parse_tls_encrypted);
  ("parse_tls_raw_record", PE _ parse_tls_raw_record);
  ("tls_parser", PE _ tls_parser);
  ("tls_parser_many", PE _ tls_parser_many);
  ("parse_tls_message_changecipherspec", PE _ parse_tls_message_changecipherspec);
  ("parse_tls_message_alert", PE _ parse_tls_message_alert);
  ("parse_tls_message_applicationdata", PE _ parse_tls_message_applicationdata);
  ("parse_tls_message_handshake", PE _ parse_tls_message_handshake);
  ("parse_tls_handshake_client_hello", PE _ parse_tls_handshake_client_hello);
  ("parse_tls_handshake_server_hello", PE _ parse_tls_handshake_server_hello);
  ("parse_tls_handshake_certificaterequest", PE _ parse_tls_handshake_certificaterequest);
  ("parse_tls_handshake_certificatestatus", PE _ parse_tls_handshake_certificatestatus);
  ("parse_tls_handshake_next_protocol", PE _ parse_tls_handshake_next_protocol);
  ("parse_tls_handshake_msg_hello_request", PE _ parse_tls_handshake_msg_hello_request);
  ("parse_tls_handshake_msg_client_hello", PE _ parse_tls_handshake_msg_client_hello);
  ("parse_tls_handshake_msg_server_hello", PE _ parse_tls_handshake_msg_server_hello);
  ("parse_tls_handshake_msg_hello_retry_request", PE _ parse_tls_handshake_msg_hello_retry_request);
  ("parse_tls_handshake_msg_certificate", PE _ parse_tls_handshake_msg_certificate);
  ("parse_tls_handshake_msg_certificaterequest", PE _ parse_tls_handshake_msg_certificaterequest);
  ("parse_tls_handshake_msg_certificatestatus", PE _ parse_tls_handshake_msg_certificatestatus);
  ("parse_tls_handshake_msg_next_protocol", PE _ parse_tls_handshake_msg_next_protocol);
  ("parse_tls_handshake_msg_key_update", PE _ parse_tls_handshake_msg_key_update);
  ("parse_tls_extension", PE _ parse_tls_extension);
  ("parse_tls_client_hello_extension", PE _ parse_tls_client_hello_extension);
  ("parse_tls_server_hello_extension", PE _ parse_tls_server_hello_extension);
  ("parse_tls_extensions", PE _ parse_tls_extensions);
  ("parse_tls_client_hello_extensions", PE _ parse_tls_client_hello_extensions);
  ("parse_tls_server_hello_extensions", PE _ parse_tls_server_hello_extensions);
  ("parse_tls_extension_unknown", PE _ parse_tls_extension_unknown);
  ("parse_tls_extension_sni_hostname", PE _ parse_tls_extension_sni_hostname);
  ("parse_tls_extension_sni_content", PE _ parse_tls_extension_sni_content);
  ("parse_tls_extension_max_fragment_length_content", PE _ parse_tls_extension_max_fragment_length_content);
  ("parse_tls_extension_elliptic_curves_content", PE _ parse_tls_extension_elliptic_curves_content);
  ("parse_tls_extension_ec_point_formats_content", PE _ parse_tls_extension_ec_point_formats_content);
  ("parse_tls_extension_signature_algorithms_content", PE _ parse_tls_extension_signature_algorithms_content);
  ("parse_tls_extension_heartbeat_content", PE _ parse_tls_extension_heartbeat_content);
  ("parse_tls_extension_alpn_content", PE _ parse_tls_extension_alpn_content);
  ("parse_tls_extension_signed_certificate_timestamp_content", PE _ parse_tls_extension_signed_certificate_timestamp_content);
  ("parse_tls_extension_psk_key_exchange_modes_content", PE _ parse_tls_extension_psk_key_exchange_modes_content);
  ("parse_tls_extension_renegotiation_info_content", PE _ parse_tls_extension_renegotiation_info_content);
  ("parse_tls_extension_encrypted_server_name", PE _ parse_tls_extension_encrypted_server_name);
  ("parse_tls_extension_sni", PE _ parse_tls_extension_sni);
  ("parse_tls_extension_max_fragment_length", PE _ parse_tls_extension_max_fragment_length);
  ("parse_tls_extension_status_request", PE _ parse_tls_extension_status_request);
  ("parse_tls_extension_elliptic_curves", PE _ parse_tls_extension_elliptic_curves);
  ("parse_tls_extension_ec_point_formats", PE _ parse_tls_extension_ec_point_formats);
  ("parse_tls_extension_signature_algorithms", PE _ parse_tls_extension_signature_algorithms);
  ("parse_tls_extension_heartbeat", PE _ parse_tls_extension_heartbeat);
  ("parse_tls_extension_encrypt_then_mac", PE _ parse_tls_extension_encrypt_then_mac);
  ("parse_tls_extension_extended_master_secret", PE _ parse_tls_extension_extended_master_secret);
  ("parse_tls_extension_session_ticket", PE _ parse_tls_extension_session_ticket);
  ("parse_tls_extension_key_share", PE _ parse_tls_extension_key_share);
  ("parse_tls_extension_pre_shared_key", PE _ parse_tls_extension_pre_shared_key);
  ("parse_tls_extension_early_data", PE _ parse_tls_extension_early_data);
  ("parse_tls_extension_supported_versions", PE _ parse_tls_extension_supported_versions);
  ("parse_tls_extension_cookie", PE _ parse_tls_extension_cookie);
  ("parse_tls_extension_psk_key_exchange_modes", PE _ parse_tls_extension_psk_key_exchange_modes);
  ("parse_named_groups", PE _ parse_named_groups);
  ("parse_dh_params", PE _ parse_dh_params);
  ("parse_ec_parameters", PE _ parse_ec_parameters);
  ("parse_ecdh_params", PE _ parse_ecdh_params);
  ("parse_digitally_signed_old", PE _ parse_digitally_signed_old);
  ("parse_digitally_signed", PE _ parse_digitally_signed);
  ("parse_ct_signed_certificate_timestamp", PE _ parse_ct_signed_certificate_timestamp);
  ("parse_ct_signed_certificate_timestamp_list", PE _ parse_ct_signed_certificate_timestamp_list);
  ("ECPoint::parse", PE _ parse_ec_point);
  ("ECCurve::parse", PE _ parse_ec_curve);
  ("ExplicitPrimeContent::parse", PE _ parse_explicit_prime);
  ("parse_dtls_record_header", PE _ parse_dtls_record_header);
  ("parse_dtls_message_handshake", PE _ parse_dtls_message_handshake);
  ("parse_dtls_message_changecipherspec", PE _ parse_dtls_message_changecipherspec);
  ("parse_dtls_message_alert", PE _ parse_dtls_message_alert);
  ("parse_dtls_plaintext_record", PE _ parse_dtls_plaintext_record);
  ("parse_dtls_plaintext_records", PE _ parse_dtls_plaintext_records)].
(* entry points with a length / selector argument: for every value of the argument *)
Definition public_parsers_arg : list (string * (N -> pentry)) := [
  ("parse_tls_message_heartbeat", fun n => PE _ (parse_tls_message_heartbeat n));
  ("parse_tls_handshake_msg_newsessionticket", fun n => PE _ (parse_tls_handshake_msg_newsessionticket n));
  ("parse_tls_handshake_msg_serverkeyexchange", fun n => PE _ (parse_tls_handshake_msg_serverkeyexchange n));
  ("parse_tls_handshake_msg_serverdone", fun n => PE _ (parse_tls_handshake_msg_serverdone n));
  ("parse_tls_handshake_msg_certificateverify", fun n => PE _ (parse_tls_handshake_msg_certificateverify n));
  ("parse_tls_handshake_msg_clientkeyexchange", fun n => PE _ (parse_tls_handshake_msg_clientkeyexchange n));
  ("parse_tls_handshake_msg_finished", fun n => PE _ (parse_tls_handshake_msg_finished n));
  ("ECParametersContent::parse", fun n => PE _ (parse_ec_parameters_content n))].

(* Forall as a conjunction: the proof term does not repeat the tail of the list (with its strings) at every element *)
Theorem public_parsers_safe : Forall (fun e => safe_entry (snd e)) public_parsers.
Proof. apply Forall_fold_right; cbn [public_parsers fold_right snd safe_entry]; unfold tls_parser; repeat split; solve_safe. Qed.
Theorem public_parsers_arg_safe : Forall (fun e => forall n, safe_entry (snd e n)) public_parsers_arg.
Proof. apply Forall_fold_right; cbn [public_parsers_arg fold_right snd safe_entry]; repeat split; solve_safe. Qed.

(* The translated source of an entry point (gen/C01_src.v): a function tied to the parser listed at position n is safe.
   The proof names the position, so its size does not grow with the list. *)
Lemma tied_entry_safe {A} (src : slice -> res A) (p : P A) n name :
  (forall i, src i = run p i) -> nth_error public_parsers n = Some (name, PE A p) -> forall i, safe (src i).
Proof.
  intros T E i. rewrite T. apply nth_error_In in E. exact (proj1 (Forall_forall _ _) public_parsers_safe _ E i).
Qed.
Lemma tied_entry_arg_safe {A} (src : N -> slice -> res A) (p : N -> P A) n name :
  (forall a i, src a i = run (p a) i) -> nth_error public_parsers_arg n = Some (name, fun a => PE A (p a)) ->
  forall a i, safe (src a i).
Proof.
  intros T E a i. rewrite T. apply nth_error_In in E. exact (proj1 (Forall_forall _ _) public_parsers_arg_safe _ E a i).
Qed.
