(* association tables compared as maps (insensitive to the order of non-overlapping arms) *)
From TlsModel Require Import DispatchTypes.

Section T.
  Context {A : Type} (eqb : A -> A -> bool).
  Hypothesis eqb_eq : forall a b, eqb a b = true -> a = b.

  Definition opt_eqb (a b : option A) : bool :=
    match a, b with Some x, Some y => eqb x y | None, None => true | _, _ => false end.
  Lemma opt_eqb_eq a b : opt_eqb a b = true -> a = b.
  Proof.
    destruct a as [x|], b as [y|]; cbn [opt_eqb]; [intros ->%eqb_eq; reflexivity | discriminate | discriminate | reflexivity].
  Qed.

  Definition same_assoc (x y : list (N * A)) : bool :=
    forallb (fun k => opt_eqb (assoc_N k x) (assoc_N k y)) (map fst x ++ map fst y).

  Lemma assoc_In k (v : A) l : assoc_N k l = Some v -> In (k, v) l.
  Proof.
    induction l as [|[k' v'] l IH]; cbn [assoc_N]; [discriminate|].
    destruct (N.eqb_spec k k') as [->|]; [intros [= ->]; left; reflexivity | right; auto].
  Qed.
  Lemma assoc_none k (l : list (N * A)) : ~ In k (map fst l) -> assoc_N k l = None.
  Proof.
    intros H. destruct (assoc_N k l) as [v|] eqn:E; [|reflexivity]. elim H. exact (in_map fst _ _ (assoc_In _ _ _ E)).
  Qed.

  Lemma same_assoc_eq x y : same_assoc x y = true -> forall k, assoc_N k x = assoc_N k y.
  Proof.
    unfold same_assoc. rewrite forallb_forall. intros H k.
    destruct (in_dec N.eq_dec k (map fst x ++ map fst y)) as [Hin|Hn].
    - apply opt_eqb_eq. apply H. exact Hin.
    - rewrite in_app_iff in Hn. rewrite !assoc_none; [reflexivity| |]; intros Hi; apply Hn; auto.
  Qed.
End T.
