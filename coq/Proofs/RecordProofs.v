(* C02: the three record parsers are the framing specification (Spec/RecordSpec.v) followed by what each does with
   header and payload; a complete record is never answered with Incomplete. *)
From TlsModel Require Import Record BytesLemmas NomGeneric RunLemmas RtTactics TableLemmas RecordSpec Wire.
From TlsModel Require Import Consts Dispatch.
From Coq Require Import Lia.

Lemma cap_value : MAX_RECORD_LEN = RECORD_CAP.
Proof. reflexivity. Qed.

Lemma run_header i :
  run parse_tls_record_header i =
    if slen i <? 5 then Incomplete (Size (hdr_need (slen i)))
    else Ok (sdrop i 5) (mkHdr (be_val (takeN (bytes i) 1)) (be_val (takeN (dropN (bytes i) 1) 2))
                               (be_val (takeN (dropN (bytes i) 3) 2))).
Proof.
  unfold parse_tls_record_header, be_u8, be_u16. rewrite !run_bind_beu, run_ret, !slen_sdrop, !sdrop_sdrop, !bytes_sdrop.
  change (N.of_nat 1) with 1. change (N.of_nat 2) with 2.
  destruct (N.ltb_spec (slen i) 5) as [H|H].
  - (* the three tests ask for what the field being read lacks, which is [hdr_need] at each of the five lengths *)
    assert (slen i = 0 \/ slen i = 1 \/ slen i = 2 \/ slen i = 3 \/ slen i = 4) as [-> | [-> | [-> | [-> | ->]]]] by lia;
      reflexivity.
  - rewrite !(proj2 (N.ltb_ge _ _)) by lia. reflexivity.
Qed.

(* what follows a record header, TLS or DTLS: the cap test, then exactly len bytes for whatever comes next *)
Lemma run_capped_take A len (k : slice -> P A) r :
  run (if MAX_RECORD_LEN <? len then ErrK KTooLarge else let* d := Take len in k d) r =
    if RECORD_CAP <? len then Err r KTooLarge
    else if slen r <? len then Incomplete (Size (len - slen r))
    else run (k (stake r len)) (sdrop r len).
Proof.
  rewrite cap_value. destruct (RECORD_CAP <? len); [reflexivity|]. rewrite run_bind, run_take.
  now destruct (slen r <? len).
Qed.

(* the three record parsers share the framing; they differ in what is done with header and payload *)
Lemma run_framed A (k : TlsRecordHeader -> slice -> P A) i :
  run (let* hdr := parse_tls_record_header in
       if MAX_RECORD_LEN <? h_len hdr then ErrK KTooLarge else let* d := Take (h_len hdr) in k hdr d) i =
    match framing_spec i with
    | FrIncomplete m => Incomplete (Size m)
    | FrTooLarge s => Err s KTooLarge
    | FrOk h p r => run (k h p) r
    end.
Proof.
  unfold framing_spec. rewrite run_bind, run_header.
  fold (slen i). destruct (N.ltb_spec (slen i) 5) as [H5|H5]; [reflexivity|].
  cbn [h_len]. rewrite run_capped_take, slen_sdrop, sdrop_sdrop.
  set (len := be_val (takeN (dropN (bytes i) 3) 2)).
  destruct (RECORD_CAP <? len); [reflexivity|].
  replace (slen i - 5 <? len) with (slen i <? 5 + len) by lia.
  destruct (slen i <? 5 + len); [do 2 f_equal; lia | reflexivity].
Qed.

Theorem raw_spec i : run parse_tls_raw_record i = framing_spec_raw i.
Proof. exact (run_framed _ (fun h d => Ret (mkRaw h d)) i). Qed.

Theorem enc_spec i : run parse_tls_encrypted i = framing_spec_enc i.
Proof. exact (run_framed _ (fun h d => Ret (mkEnc h d)) i). Qed.

Definition lift_plain (hdr : TlsRecordHeader) (rest : slice) (r : res (list TlsMessage)) : res TlsPlaintext :=
  match r with
  | Ok _ msgs => Ok rest (mkPlain hdr msgs)
  | Err s k => Err s k | Fail s k => Fail s k
  | Incomplete n => Incomplete n | Panic => Panic | OutOfFuel => OutOfFuel
  end.

Theorem plaintext_char i :
  run parse_tls_plaintext i =
    match framing_spec i with
    | FrIncomplete m => Incomplete (Size m)
    | FrTooLarge s => Err s KTooLarge
    | FrOk h p r => lift_plain h r (run (parse_tls_record_with_header h) p)
    end.
Proof.
  transitivity (run (let* hdr := parse_tls_record_header in
                     if MAX_RECORD_LEN <? h_len hdr then ErrK KTooLarge else
                     let* d := Take (h_len hdr) in
                     let* msg := On d (parse_tls_record_with_header hdr) in Ret (mkPlain hdr msg)) i).
  - unfold parse_tls_plaintext. rewrite !run_bind. destruct (run parse_tls_record_header i) as [r h| | | | |]; try reflexivity.
    destruct (MAX_RECORD_LEN <? h_len h); [reflexivity | apply run_bind_assoc].
  - rewrite run_framed. destruct (framing_spec i) as [m|s|h p r]; try reflexivity. apply run_on_ret.
Qed.

(* the framing of an input can be read off what the raw-record parser does on it *)
Lemma framing_of_raw i f :
  run parse_tls_raw_record i = match f with
                               | FrIncomplete m => Incomplete (Size m)
                               | FrTooLarge s => Err s KTooLarge
                               | FrOk h p r => Ok r (mkRaw h p)
                               end -> framing_spec i = f.
Proof. rewrite raw_spec. unfold framing_spec_raw. destruct (framing_spec i), f; congruence. Qed.

Lemma framing_fields ty ver len body o :
  ty < 256 -> ver < 65536 -> len < 65536 ->
  framing_spec (mkS o (u8 ty ++ u16 ver ++ u16 len ++ body)) =
    if RECORD_CAP <? len then FrTooLarge (mkS (o + 5) body)
    else if lenN body <? len then FrIncomplete (len - lenN body)
    else FrOk (mkHdr ty ver len) (mkS (o + 5) (takeN body len)) (mkS (o + 5 + len) (dropN body len)).
Proof.
  intros Ht Hv Hl. apply framing_of_raw. unfold parse_tls_raw_record, parse_tls_record_header.
  rewrite run_bind_assoc. rt_step. rewrite run_bind_assoc. rt_step. rewrite run_bind_assoc. rt_step.
  rewrite run_bind, run_ret. cbn [h_len]. replace (o + 1 + 2 + 2) with (o + 5) by lia.
  rewrite run_capped_take. destruct (RECORD_CAP <? len); [reflexivity|].
  unfold slen; cbn [bytes]. destruct (lenN body <? len); reflexivity.
Qed.

Lemma framing_of_encoding ty ver payload rest o :
  ty < 256 -> ver < 65536 -> lenN payload <= RECORD_CAP ->
  framing_spec (mkS o (enc_record ty ver payload ++ rest)) =
    FrOk (mkHdr ty ver (lenN payload)) (mkS (o + 5) payload) (mkS (o + 5 + lenN payload) rest).
Proof.
  intros Ht Hv Hl. unfold enc_record, vec16. rewrite <- !app_assoc, framing_fields by (unfold RECORD_CAP in Hl; lia).
  destruct (N.ltb_spec RECORD_CAP (lenN payload)); [lia|].
  now rewrite lenN_app_ge, takeN_app_exact, dropN_app_exact.
Qed.

(* a complete payload never answers Incomplete: every content parser of the table but the bare heartbeat one is
   wrapped in complete(..) or cannot ask for more *)
Definition never_inc {A} (p : P A) : Prop := forall i n, run p i <> Incomplete n.

Lemma never_inc_cmpl A (p : P A) : never_inc (Cmpl p).
Proof. intros i n; cbn [run]. destruct (run p i); discriminate. Qed.

Lemma never_inc_many1 A (p : P A) : never_inc p -> never_inc (Many1 p).
Proof.
  intros Hp i n. destruct (run_many_spec A p i) as (l & j & _ & _ & _ & ->). pose proof (Hp j n).
  unfold loop_end. destruct (run p i); [| discriminate | ..]; destruct (run p j); cbn [handle]; congruence.
Qed.

Lemma run_appdata o b :
  run parse_tls_message_applicationdata (mkS o b) = Ok (mkS (o + lenN b) []) (MApplicationData (mkS o b)).
Proof. exact (run_take_whole _ MApplicationData o b). Qed.

Definition rec_body_no_inc (b : rec_body_id) : bool :=
  match b with RB_heartbeat => false | _ => true end.

Lemma rec_body_no_inc_sound b hdr : rec_body_no_inc b = true -> never_inc (rec_body b hdr).
Proof.
  destruct b; cbn [rec_body_no_inc rec_body]; intros H.
  1-4: apply never_inc_many1, never_inc_cmpl.
  - discriminate H.
  - intros [o b] n. unfold pmap. rewrite run_bind, run_appdata. discriminate.
  - apply never_inc_cmpl.
Qed.

(* the obligation over the regenerated dispatch table *)
Definition rec_table_no_inc : bool := forallb (fun p => rec_body_no_inc (snd p)) rec_table.

Theorem inner_never_incomplete :
  rec_table_no_inc = true ->
  forall hdr d n, run (parse_tls_record_with_header hdr) d <> Incomplete n.
Proof.
  unfold rec_table_no_inc. rewrite forallb_forall. intros Ht hdr d n. unfold parse_tls_record_with_header.
  destruct (assoc_N (h_type hdr) rec_table) as [b|] eqn:E.
  - apply rec_body_no_inc_sound, (Ht (h_type hdr, b)), assoc_In, E.
  - discriminate.
Qed.
