(* C09: the serializer's output is the RFC encoding of the (normalised) value, hence parses back. *)
From TlsModel Require Import Serialize SerConsts Wire RtTactics.
From Coq Require Import Lia.

Definition ser_consts_ok : bool :=
  (ser_ccs_byte =? 1) && (ser_ty_clienthello =? 1) && (ser_ty_serverhello =? 2) && (ser_ty_serverhello13 =? 2) &&
  (ser_ty_cke_unknown =? 16) && (ser_ty_cke_dh =? 16) && (ser_ty_cke_ecdh =? 16) && (ser_ty_hellorequest =? 0) &&
  (ser_ty_finished =? 20) && (ser_tag_sni =? 0) && (ser_tag_mfl =? 1) && (ser_tag_groups =? 10).

(* what reads back: an absent extension block as an empty one; a DH / ECDH ClientKeyExchange as the opaque
   body holding the length-prefixed public value *)
Definition norm_ext (e : option slice) : option slice := match e with None => Some (mkS 0 []) | s => s end.
Definition norm_hs (h : TlsMessageHandshake) : TlsMessageHandshake :=
  match h with
  | HClientHello c => HClientHello (mkCH (ch_version c) (ch_random c) (ch_sid c) (ch_ciphers c) (ch_comp c) (norm_ext (ch_ext c)))
  | HServerHello c => HServerHello (mkSH (sh_version c) (sh_random c) (sh_sid c) (sh_cipher c) (sh_comp c) (norm_ext (sh_ext c)))
  | HServerHelloV13Draft18 c => HServerHelloV13Draft18 (mkSH13 (sh13_version c) (sh13_random c) (sh13_cipher c) (norm_ext (sh13_ext c)))
  | HClientKeyExchange (CkeDh b) => HClientKeyExchange (CkeUnknown (mkS 0 (vec16 (bytes b))))
  | HClientKeyExchange (CkeEcdh b) => HClientKeyExchange (CkeUnknown (mkS 0 (vec8 (bytes b))))
  | other => other
  end.
Definition supported_hs (h : TlsMessageHandshake) : bool :=
  match h with
  | HHelloRequest | HClientHello _ | HServerHello _ | HServerHelloV13Draft18 _ | HClientKeyExchange _ | HFinished _ => true
  | _ => false
  end.
(* within wire limits: every length fits the field that carries it *)
Definition ser_limits (h : TlsMessageHandshake) : Prop :=
  match h with
  | HClientHello c => lenN (ch_ciphers c) < 32768 /\ lenN (ch_comp c) < 256 /\
                      (forall s, ch_sid c = Some s -> slen s < 256) /\ (forall s, ch_ext c = Some s -> slen s < 65536)
  | HServerHello c => (forall s, sh_sid c = Some s -> slen s < 256) /\ (forall s, sh_ext c = Some s -> slen s < 65536)
  | HServerHelloV13Draft18 c => forall s, sh13_ext c = Some s -> slen s < 65536
  | HClientKeyExchange (CkeDh b) => slen b < 65536
  | HClientKeyExchange (CkeEcdh b) => slen b < 256
  | _ => True
  end.

Definition norm_msg (m : TlsMessage) : TlsMessage := match m with MHandshake h => MHandshake (norm_hs h) | other => other end.
Definition supported_msg (m : TlsMessage) : bool :=
  match m with MHandshake h => supported_hs h | MChangeCipherSpec => true | _ => false end.
Definition msg_limits (m : TlsMessage) : Prop := match m with MHandshake h => ser_limits h | _ => True end.
Definition ext_supported (e : TlsExtension) : bool :=
  match e with ESNI _ | EMaxFragmentLength _ | EEllipticCurves _ => true | _ => false end.

Lemma sall_map {A} (f : A -> ser) (g : A -> list byte) l :
  (forall x, In x l -> f x = SerOk (g x)) -> sall (map f l) = SerOk (cat g l).
Proof.
  induction l as [|a t IH]; intros H; [reflexivity|]. cbn [map sall].
  rewrite (H a (or_introl eq_refl)), IH by (intros x Hx; exact (H x (or_intror Hx))). reflexivity.
Qed.
(* one unsupported element makes the whole list fail: no partial output is presented as valid *)
Lemma sall_map_nyi {A} (f : A -> ser) l x : In x l -> f x = SerNYI -> (forall y, In y l -> f y <> SerPanic) ->
  sall (map f l) = SerNYI.
Proof.
  induction l as [|a t IH]; intros Hin Hx Hp; [destruct Hin|]. cbn [map sall]. unfold scat.
  destruct Hin as [->|Hin]; [now rewrite Hx|]. rewrite (IH Hin Hx) by (intros y Hy; exact (Hp y (or_intror Hy))).
  destruct (f a) eqn:E; [reflexivity | reflexivity | now elim (Hp a (or_introl eq_refl))].
Qed.

Theorem ser_nyi h : supported_hs h = false -> gen_tls_messagehandshake h = SerNYI.
Proof. destruct h; cbn; congruence. Qed.
Theorem ser_msg_nyi m : supported_msg m = false -> gen_tls_message m = SerNYI.
Proof. destruct m; cbn; try congruence. apply ser_nyi. Qed.

Lemma ext_same e : maybe_extensions e = enc_optext (norm_ext e).
Proof. now destruct e. Qed.
Lemma maybe_ext_norm e : maybe_extensions (norm_ext e) = maybe_extensions e.
Proof. now destruct e. Qed.

Section Ser.
  Hypothesis Hc : ser_consts_ok = true.
  Lemma consts : ser_ccs_byte = 1 /\ ser_ty_clienthello = 1 /\ ser_ty_serverhello = 2 /\ ser_ty_serverhello13 = 2 /\
    ser_ty_cke_unknown = 16 /\ ser_ty_cke_dh = 16 /\ ser_ty_cke_ecdh = 16 /\ ser_ty_hellorequest = 0 /\
    ser_ty_finished = 20 /\ ser_tag_sni = 0 /\ ser_tag_mfl = 1 /\ ser_tag_groups = 10.
  Proof.
    unfold ser_consts_ok in Hc. repeat (apply andb_prop in Hc as [Hc ?]).
    repeat match goal with H : (_ =? _) = true |- _ => apply N.eqb_eq in H end. tauto.
  Qed.

  Theorem ser_is_rfc_encoding h : supported_hs h = true -> ser_limits h ->
    gen_tls_messagehandshake h = SerOk (enc_handshake (norm_hs h)).
  Proof.
    destruct consts as (_ & C1 & C2 & C3 & C4 & C5 & C6 & C7 & C8 & _).
    intros Hs Hl. destruct h; try (discriminate Hs); cbn [gen_tls_messagehandshake norm_hs ser_limits] in *.
    - rewrite C7. reflexivity.
    - (* the cipher count does not wrap; the two length fields are the lengths of the lists they prefix *)
      destruct Hl as [Hn _]. unfold gen_tls_clienthello.
      rewrite (N.mod_small (lenN (ch_ciphers c))), N.mul_comm by lia.
      destruct (N.leb_spec 65536 (2 * lenN (ch_ciphers c))); [lia|].
      rewrite C1, ext_same, <- lenN_cat_u16, <- (lenN_cat_u8 (ch_comp c)). reflexivity.
    - unfold gen_tls_serverhello. rewrite C2, ext_same. reflexivity.
    - unfold gen_tls_serverhellodraft18. rewrite C3, ext_same. reflexivity.
    - destruct c; cbn [gen_tls_clientkeyexchange]; rewrite ?C4, ?C5, ?C6; reflexivity.
    - rewrite C8. reflexivity.
  Qed.

  Theorem ser_ccs : gen_tls_message MChangeCipherSpec = SerOk (enc_msg MChangeCipherSpec).
  Proof. cbn. now rewrite (proj1 consts). Qed.

  Lemma ser_msg_is_enc m : supported_msg m = true -> msg_limits m -> gen_tls_message m = SerOk (enc_msg (norm_msg m)).
  Proof. destruct m; try discriminate; [apply ser_is_rfc_encoding | intros _ _; apply ser_ccs]. Qed.

  (* normalising changes nothing the serializer looks at, for any value: none of the three hypotheses of
     [reserialize_same] is used *)
  Theorem ser_norm h : gen_tls_messagehandshake (norm_hs h) = gen_tls_messagehandshake h.
  Proof.
    destruct consts as (_ & _ & _ & _ & C4 & C5 & C6 & _).
    (* the cases that [norm_hs] leaves alone are closed where both sides are the same term; a bare `reflexivity` would
       also close the two ClientKeyExchange cases, by evaluating the regenerated constants *)
    destruct h as [|c|c|c| | | | | | | | |[b|b|b]| | | |]; cbn [norm_hs gen_tls_messagehandshake];
      try match goal with |- ?x = ?x => reflexivity end.
    - unfold gen_tls_clienthello. cbn [ch_version ch_random ch_sid ch_ciphers ch_comp ch_ext]. now rewrite maybe_ext_norm.
    - unfold gen_tls_serverhello. cbn [sh_version sh_random sh_sid sh_cipher sh_comp sh_ext]. now rewrite maybe_ext_norm.
    - unfold gen_tls_serverhellodraft18. cbn [sh13_version sh13_random sh13_cipher sh13_ext]. now rewrite maybe_ext_norm.
    - cbn [gen_tls_clientkeyexchange]. now rewrite C4, C5.
    - cbn [gen_tls_clientkeyexchange]. now rewrite C4, C6.
  Qed.
  Theorem reserialize_same h : supported_hs h = true -> ser_limits h -> lenN (enc_hs_body (norm_hs h)) < 16777216 ->
    gen_tls_messagehandshake (norm_hs h) = gen_tls_messagehandshake h.
  Proof. intros _ _ _. apply ser_norm. Qed.
End Ser.
