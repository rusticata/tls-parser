(* C03: a record's payload decodes to exactly its messages, in order. *)
From TlsModel Require Import Record BytesLemmas RunLemmas ManyLemmas RtTactics Decodes RecordSpec Wire Strip
  TableLemmas RecordProofs.
From TlsModel Require Import Dispatch.
From Coq Require Import Lia.

Definition rec_body_eqb (a b : rec_body_id) : bool :=
  match a, b with
  | RB_many1_ccs, RB_many1_ccs | RB_many1_alert, RB_many1_alert | RB_many1_handshake, RB_many1_handshake
  | RB_many1_appdata, RB_many1_appdata | RB_heartbeat, RB_heartbeat | RB_once_appdata, RB_once_appdata
  | RB_complete_heartbeat, RB_complete_heartbeat => true
  | _, _ => false
  end.
Definition rec_table_expected : list (N * rec_body_id) :=
  [(20, RB_many1_ccs); (21, RB_many1_alert); (22, RB_many1_handshake); (23, RB_once_appdata); (24, RB_complete_heartbeat)].
Fixpoint table_eqb {A} (eqb : A -> A -> bool) (x y : list (N * A)) : bool :=
  match x, y with
  | [], [] => true
  | (k, a) :: x', (k', a') :: y' => (k =? k') && eqb a a' && table_eqb eqb x' y'
  | _, _ => false
  end.
Lemma table_eqb_eq {A} (eqb : A -> A -> bool) (Heq : forall a b, eqb a b = true -> a = b) x y :
  table_eqb eqb x y = true -> x = y.
Proof.
  revert y; induction x as [|[k a] x IH]; intros [|[k' a'] y]; try discriminate; [reflexivity|].
  intros H. apply andb_prop in H as [H H3]. apply andb_prop in H as [H1 H2].
  apply N.eqb_eq in H1. apply Heq in H2. apply IH in H3. congruence.
Qed.
Lemma rec_body_eqb_eq a b : rec_body_eqb a b = true -> a = b.
Proof. destruct a, b; cbn; congruence. Qed.
Definition rec_table_std : bool := table_eqb rec_body_eqb rec_table rec_table_expected.
Lemma rec_table_is : rec_table_std = true -> rec_table = rec_table_expected.
Proof. apply table_eqb_eq. exact rec_body_eqb_eq. Qed.

Lemma with_header_type hdr b : rec_table_std = true -> assoc_N (h_type hdr) rec_table_expected = Some b ->
  parse_tls_record_with_header hdr = rec_body b hdr.
Proof. intros H E. unfold parse_tls_record_with_header. rewrite (rec_table_is H), E. reflexivity. Qed.

Definition wf_ccs (m : TlsMessage) : Prop := m = MChangeCipherSpec.
Definition wf_alert (m : TlsMessage) : Prop := exists s c, m = MAlert s c /\ s < 256 /\ c < 256.

Lemma ccs_rt : roundtrips parse_tls_message_changecipherspec enc_msg wf_ccs msg_eqv.
Proof.
  apply roundtrips_dec. intros v o rest ->. apply dec_last, dec_vrfy, dec_beu; [lia|]. split; [reflexivity|]. now apply dec_ret.
Qed.
Lemma ccs_ne : nonempty_enc enc_msg wf_ccs.
Proof. intros v ->. cbn. lia. Qed.

Lemma alert_rt : roundtrips parse_tls_message_alert enc_msg wf_alert msg_eqv.
Proof. apply roundtrips_dec. intros v o rest (s & c & -> & Hs & Hc). do 2 dec_field. now apply dec_ret. Qed.
Lemma alert_ne : nonempty_enc enc_msg wf_alert.
Proof. intros v [s [c [-> _]]]. cbn [enc_msg]. rewrite lenN_app, !lenN_u8. lia. Qed.

Section Decode.
  Hypothesis Ht : rec_table_std = true.

  (* a content type whose table entry is many1(complete(p)), for any p whose encodings round-trip *)
  Lemma decode_many1 hdr b p wf :
    assoc_N (h_type hdr) rec_table_expected = Some b ->
    rec_body b hdr = Many1 (Cmpl p) ->
    roundtrips p enc_msg wf msg_eqv -> nonempty_enc enc_msg wf ->
    forall m ms o tail,
      (forall x, In x (m :: ms) -> wf x) ->
      stops p (mkS (o + lenN (cat enc_msg (m :: ms))) tail) ->
      exists vs', run (parse_tls_record_with_header hdr) (mkS o (cat enc_msg (m :: ms) ++ tail)) =
                    Ok (mkS (o + lenN (cat enc_msg (m :: ms))) tail) vs' /\ msgs_eqv vs' (m :: ms).
  Proof.
    intros E Eb Hrt Hne m ms o tail Hwf Hs. rewrite (with_header_type hdr b Ht E), Eb.
    exact (many1_cmpl_rt p enc_msg wf msg_eqv Hrt Hne m ms o tail Hwf Hs).
  Qed.

  Theorem decode_ccs hdr : h_type hdr = 20 -> forall m ms o tail,
    (forall x, In x (m :: ms) -> wf_ccs x) ->
    stops parse_tls_message_changecipherspec (mkS (o + lenN (cat enc_msg (m :: ms))) tail) ->
    exists vs', run (parse_tls_record_with_header hdr) (mkS o (cat enc_msg (m :: ms) ++ tail)) =
                  Ok (mkS (o + lenN (cat enc_msg (m :: ms))) tail) vs' /\ msgs_eqv vs' (m :: ms).
  Proof.
    intros H. apply (decode_many1 hdr RB_many1_ccs); [rewrite H; reflexivity | reflexivity | exact ccs_rt | exact ccs_ne].
  Qed.
  (* heartbeat: type, u16 payload length, payload; the padding is left as remainder *)
  Theorem decode_heartbeat hdr : h_type hdr = 24 -> 3 <= h_len hdr -> forall t payload padding o,
    t < 256 -> lenN payload < 65536 ->
    run (parse_tls_record_with_header hdr) (mkS o (u8 t ++ u16 (lenN payload) ++ payload ++ padding)) =
      Ok (mkS (o + 3 + lenN payload) padding) [MHeartbeat t (lenN payload) (mkS (o + 3) payload)].
  Proof.
    intros H Hl t payload padding o Ht8 Hp. rewrite (with_header_type hdr RB_complete_heartbeat Ht) by (rewrite H; reflexivity).
    cbn [rec_body]. rewrite run_cmpl. unfold parse_tls_message_heartbeat. do 2 rt_step.
    destruct (N.ltb_spec (h_len hdr) 3); [lia|].
    rewrite run_bind, run_take_app by reflexivity.  replace (o + 1 + 2) with (o + 3) by lia. reflexivity.
  Qed.

  Theorem reject_unknown_type hdr i :
    ~ In (h_type hdr) [20; 21; 22; 23; 24] -> run (parse_tls_record_with_header hdr) i = Err i KSwitch.
  Proof.
    intros H. unfold parse_tls_record_with_header. now rewrite (rec_table_is Ht), (assoc_none (h_type hdr) rec_table_expected H).
  Qed.

  (* a payload whose first message is malformed or cut short (or an empty payload) never yields a value *)
  Theorem reject_first_bad hdr i : In (h_type hdr) [20; 21; 22] ->
    (h_type hdr = 20 -> stops parse_tls_message_changecipherspec i) ->
    (h_type hdr = 21 -> stops parse_tls_message_alert i) ->
    (h_type hdr = 22 -> stops parse_tls_message_handshake i) ->
    exists s k, run (parse_tls_record_with_header hdr) i = Err s k.
  Proof.
    intros Hin H20 H21 H22.  destruct Hin as [E|[E|[E|[]]]]; symmetry in E.
    - rewrite (with_header_type hdr RB_many1_ccs Ht) by (rewrite E; reflexivity). apply many1_first_stops; auto.
    - rewrite (with_header_type hdr RB_many1_alert Ht) by (rewrite E; reflexivity). apply many1_first_stops; auto.
    - rewrite (with_header_type hdr RB_many1_handshake Ht) by (rewrite E; reflexivity). apply many1_first_stops; auto.
  Qed.
  Corollary reject_empty hdr o : In (h_type hdr) [20; 21; 22] ->
    exists s k, run (parse_tls_record_with_header hdr) (mkS o []) = Err s k.
  Proof.
    intros H. apply reject_first_bad; [exact H | intros _ ..].
    (* every message parser starts by reading an integer *)
    - apply stops_bind_l, stops_vrfy, stops_beu_nil. lia.
    - apply stops_bind_beu_nil. lia.
    - apply stops_bind_beu_nil. lia.
  Qed.
End Decode.

Theorem one_step_two_step i :
  run parse_tls_plaintext i =
    match run parse_tls_raw_record i with
    | Ok rest raw => lift_plain (r_hdr raw) rest (run (parse_tls_record_with_header (r_hdr raw)) (r_data raw))
    | Err s k => Err s k | Fail s k => Fail s k
    | Incomplete n => Incomplete n | Panic => Panic | OutOfFuel => OutOfFuel
    end.
Proof.
  rewrite plaintext_char, raw_spec. unfold framing_spec_raw. destruct (framing_spec i); reflexivity.
Qed.
