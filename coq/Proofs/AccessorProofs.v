(* C15: the derived hello accessors (rand_time, rand_bytes, cipher_suites) over the parsed fields. *)
From TlsModel Require Import Accessors AccessorForms Ciphers.
From Coq Require Import Lia.

Definition rand_time_ok : bool := match rand_time_src with RtFirstFour => true | RtWholeSlice => false end.

Theorem rand_time_spec : rand_time_ok = true -> forall random,
  rand_time random = if 4 <=? slen random then be_val (takeN (bytes random) 4) else 0.
Proof. unfold rand_time_ok, rand_time. destruct rand_time_src; [discriminate | reflexivity]. Qed.

Theorem rand_short : rand_time_ok = true -> forall random, slen random < 4 ->
  rand_time random = 0 /\ bytes (rand_bytes random) = [].
Proof.
  intros H random Hs. rewrite (rand_time_spec H). unfold rand_bytes.
  destruct (N.leb_spec 4 (slen random)); [lia | split; reflexivity].
Qed.

Theorem cipher_map ids : cipher_suites ids = map (fun id => option_map c_id (from_id id)) ids /\
  length (cipher_suites ids) = length ids.
Proof. split; [reflexivity | unfold cipher_suites; apply map_length]. Qed.
