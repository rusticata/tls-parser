(* Generic theorems about the combinator language, proved once by induction
   over parser terms: every parser's remainder is a suffix of its input;
   loops never run out of fuel; safety and locality are compositional. *)
From TlsModel Require Import Nom BytesLemmas RunLemmas.
From Coq Require Import Lia.

Definition suffix_of (i r : slice) : Prop := exists n, n <= slen i /\ r = sdrop i n.

Lemma suffix_sdrop i n : n <= slen i -> suffix_of i (sdrop i n).
Proof. intros H; exists n; auto. Qed.
Lemma suffix_refl i : suffix_of i i.
Proof. exists 0. split; [lia | symmetry; apply sdrop_0]. Qed.
Lemma suffix_trans i r r' : suffix_of i r -> suffix_of r r' -> suffix_of i r'.
Proof.
  intros [n [Hn ->]] [m [Hm ->]]. rewrite slen_sdrop in Hm. rewrite sdrop_sdrop. apply suffix_sdrop. lia.
Qed.
Lemma suffix_len i r : suffix_of i r -> slen r <= slen i.
Proof. intros [n [Hn ->]]. rewrite slen_sdrop. lia. Qed.
Lemma suffix_same_len i r : suffix_of i r -> slen r = slen i -> r = i.
Proof. intros [n [Hn ->]] H. rewrite slen_sdrop in H. replace n with 0 by lia. apply sdrop_0. Qed.

Lemma tag_cmp_true t l : tag_cmp t l = Some true -> lenN t <= lenN l /\ takeN l (lenN t) = t.
Proof.
  revert l; induction t as [|a t IH]; intros l H; cbn [tag_cmp lenN] in *.
  - split; [lia | apply takeN_0].
  - destruct l as [|b l]; [discriminate|]. destruct (Byte.eqb a b) eqn:E; [|discriminate].
    apply Byte.byte_dec_bl in E. subst b.
    destruct (IH _ H) as [H1 H2]. cbn [lenN takeN]. split; [lia|].
    destruct (N.eqb_spec (N.succ (lenN t)) 0); [lia|]. rewrite N.pred_succ, H2. reflexivity.
Qed.

Lemma tag_cmp_none t l : tag_cmp t l = None -> lenN l < lenN t.
Proof.
  revert l; induction t as [|a t IH]; intros l H; cbn [tag_cmp lenN] in *; [discriminate|].
  destruct l as [|b l]; cbn [lenN]; [lia|]. destruct (Byte.eqb a b); [|discriminate].
  specialize (IH _ H). lia.
Qed.

Lemma tag_cmp_app t l x b : tag_cmp t l = Some b -> tag_cmp t (l ++ x) = Some b.
Proof.
  revert l; induction t as [|a t IH]; intros l; cbn [tag_cmp]; [auto|].
  destruct l as [|c l]; [discriminate|]. cbn [app]. destruct (Byte.eqb a c); auto.
Qed.
Lemma tag_cmp_refl t rest : tag_cmp t (t ++ rest) = Some true.
Proof.
  induction t as [|x t IH]; cbn [tag_cmp app]; [reflexivity|].
  now rewrite (Byte.byte_dec_lb eq_refl).
Qed.
Lemma tag_cmp_neq t a rest : lenN a = lenN t -> a <> t -> tag_cmp t (a ++ rest) = Some false.
Proof.
  intros Hl Hne. destruct (tag_cmp t (a ++ rest)) as [[|]|] eqn:E; [|reflexivity|].
  - apply tag_cmp_true in E as [_ E]. rewrite <- Hl, takeN_app_exact in E. contradiction.
  - apply tag_cmp_none in E. rewrite lenN_app in E. lia.
Qed.

(* Bind, On, Peek, Vrfy, Opt, Alt, the first call of many1 and every turn of the two loops look at
   a result in the same way: a value goes to [k], an Error to [h], and Failure, Incomplete, Panic
   and OutOfFuel pass through ([bindr] of Model/SrcGlue.v is the case h = Err).  Unification sees
   through the constant: a lemma about [handle] applies to a goal about [run (C ..) i]. *)
Definition handle {A B} (x : res A) (k : slice -> A -> res B) (h : slice -> ekind -> res B) : res B :=
  match x with
  | Ok r a => k r a
  | Err s e => h s e
  | Fail s e => Fail s e | Incomplete n => Incomplete n | Panic => Panic | OutOfFuel => OutOfFuel
  end.

Lemma handle_ok {A B} (x : res A) k h r (v : B) :
  handle x k h = Ok r v ->
  (exists r1 a, x = Ok r1 a /\ k r1 a = Ok r v) \/ (exists s e, x = Err s e /\ h s e = Ok r v).
Proof. destruct x; try discriminate; [left | right]; eauto. Qed.
Lemma bind_ok {A B} (x : res A) k r (v : B) :
  handle x k (@Err B) = Ok r v -> exists r1 a, x = Ok r1 a /\ k r1 a = Ok r v.
Proof. intros [H | (s & e & _ & [=])]%handle_ok. exact H. Qed.

Section Loop.
  Context {A : Type} (k : ekind) (f : slice -> res A).

  (* many0_loop and many1_loop of the model are this fixpoint at KMany0 and KMany1, by conversion *)
  Fixpoint many_loop (fuel : list byte) (i : slice) : res (list A) :=
    handle (f i)
      (fun r a =>
         if slen r =? slen i then Err i k else
         match fuel with
         | [] => OutOfFuel
         | _ :: fuel' => handle (many_loop fuel' r) (fun r' l => Ok r' (a :: l)) (@Err _)
         end)
      (fun _ _ => Ok i []).

  (* f steps from i to r when it succeeds there and consumes something *)
  Inductive steps : slice -> list A -> slice -> Prop :=
  | steps_nil i : steps i [] i
  | steps_cons i r a l j : f i = Ok r a -> slen r <> slen i -> steps r l j -> steps i (a :: l) j.

  (* what the loop answers when it has collected l and f does not step from j *)
  Definition loop_end (l : list A) (j : slice) : res (list A) :=
    handle (f j) (fun _ _ => Err j k) (fun _ _ => Ok j l).

  Lemma loop_end_cons a l j : handle (loop_end l j) (fun r' l' => Ok r' (a :: l')) (@Err _) = loop_end (a :: l) j.
  Proof. unfold loop_end. destruct (f j); reflexivity. Qed.

  Lemma loop_end_ok l j r l' : loop_end l j = Ok r l' -> r = j /\ l' = l /\ exists s e, f j = Err s e.
  Proof. intros [(? & ? & _ & [=]) | (s & e & E & [= <- <-])]%handle_ok. eauto. Qed.

  Definition halts (j : slice) : Prop := forall r a, f j = Ok r a -> slen r = slen j.

  Lemma halts_or_steps i : halts i \/ exists r a, f i = Ok r a /\ slen r <> slen i.
  Proof.
    unfold halts. destruct (f i) as [r a| | | | |]; try (left; discriminate).
    destruct (N.eq_dec (slen r) (slen i)); [left; intros ? ? [= <- <-]; assumption | right; eauto].
  Qed.

  (* the two ways a turn of the loop can go; only the second uses fuel *)
  Lemma many_loop_halts fuel i : halts i -> many_loop fuel i = loop_end [] i.
  Proof.
    intros H. unfold loop_end. destruct fuel; cbn [many_loop]; destruct (f i) as [r a| | | | |] eqn:E; try reflexivity;
      cbn [handle]; rewrite (H _ _ E), N.eqb_refl; reflexivity.
  Qed.
  Lemma many_loop_step c fuel i r a : f i = Ok r a -> slen r <> slen i ->
    many_loop (c :: fuel) i = handle (many_loop fuel r) (fun r' l => Ok r' (a :: l)) (@Err _).
  Proof.
    intros E Hne. cbn [many_loop]. rewrite E. cbn [handle].
    destruct (N.eqb_spec (slen r) (slen i)); [contradiction | reflexivity].
  Qed.

  Hypothesis Hlen : forall i r a, f i = Ok r a -> slen r <= slen i.

  Lemma steps_count i l j : steps i l j -> lenN l + slen j <= slen i.
  Proof. induction 1 as [i|i r a l j E Hne S IH]; cbn [lenN]; [lia|]. apply Hlen in E. lia. Qed.

  (* here the list only bounds the length of the input, as the loop's fuel does *)
  Lemma steps_total (fuel : list byte) : forall i, slen i <= lenN fuel -> exists l j, steps i l j /\ halts j.
  Proof.
    induction fuel as [|c fuel IH]; intros i Hf; cbn [lenN] in Hf.
    all: destruct (halts_or_steps i) as [H | (r & a & E & Hne)]; [exists [], i; auto using steps_nil|].
    all: pose proof (Hlen _ _ _ E).
    - (* no fuel: the input is empty, and a step would shorten it *) lia.
    - destruct (IH r) as (l & j & S & Hj); [lia|]. exists (a :: l), j. eauto using steps.
  Qed.

  (* With one cell of fuel per input byte the loop follows the steps to the first j from which f does
     not step, and its answer is read off f j: the fuel plays no part in it. *)
  Lemma many_loop_steps i l j : steps i l j -> halts j ->
    forall fuel, slen i <= lenN fuel -> many_loop fuel i = loop_end l j.
  Proof.
    induction 1 as [i|i r a l j E Hne S IH]; intros Hj fuel Hf.
    - apply many_loop_halts, Hj.
    - pose proof (Hlen _ _ _ E). destruct fuel as [|c fuel]; cbn [lenN] in Hf; [lia|].
      rewrite (many_loop_step _ _ _ _ _ E Hne), IH by (assumption || lia). apply loop_end_cons.
  Qed.

  Lemma many_loop_ok fuel i r l : slen i <= lenN fuel ->
    many_loop fuel i = Ok r l -> steps i l r /\ exists s e, f r = Err s e.
  Proof.
    intros Hf E. destruct (steps_total fuel i Hf) as (l' & j & S & Hj).
    rewrite (many_loop_steps _ _ _ S Hj _ Hf) in E. apply loop_end_ok in E as (-> & -> & H). auto.
  Qed.
End Loop.

Lemma many_loop_ext {A} k (f g : slice -> res A) : (forall j, f j = g j) ->
  forall fuel i, many_loop k f fuel i = many_loop k g fuel i.
Proof.
  intros H. induction fuel as [|b fuel IH]; intro i; cbn [many_loop]; rewrite H; [reflexivity|].
  destruct (g i); [cbn [handle]; rewrite IH|..]; reflexivity.
Qed.

Lemma run_many0_loop A (p : P A) i : run (Many0 p) i = many_loop KMany0 (run p) (bytes i) i.
Proof. reflexivity. Qed.
Lemma run_many1_loop A (p : P A) i :
  run (Many1 p) i =
    handle (run p i)
      (fun r a => handle (many_loop KMany1 (run p) (bytes i) r) (fun r' l => Ok r' (a :: l)) (@Err _)) (@Err _).
Proof. reflexivity. Qed.

Lemma steps_suffix {A} (f : slice -> res A) : (forall i r a, f i = Ok r a -> suffix_of i r) ->
  forall i l j, steps f i l j -> suffix_of i j.
Proof. intros Hf i l j S. induction S; eauto using suffix_refl, suffix_trans. Qed.

Theorem run_suffix : forall A (p : P A) i r a, run p i = Ok r a -> suffix_of i r.
Proof.
  induction p as [A a|A B p IHp k IHk|A k|n|k|t|A p IHp|A p IHp|A s p IHp|A p IHp|A p IHp
                 |A p IHp q IHq|A p IHp f|A p IHp| |n|A]; intros i r v E.
  - injection E as <- <-. apply suffix_refl.
  - cbn [run] in E. apply bind_ok in E as (r1 & a & E1 & E2). eauto using suffix_trans.
  - discriminate.
  - apply run_take_ok in E as (H & -> & _). apply suffix_sdrop, H.
  - apply run_beu_ok in E as (H & -> & _). apply suffix_sdrop, H.
  - rewrite run_tag in E. destruct (tag_cmp t (bytes i)) as [[|]|] eqn:T; try discriminate.
    injection E as <- <-. apply suffix_sdrop, (tag_cmp_true _ _ T).
  - apply run_cmpl_inv in E. eapply IHp, E.
  - cbn [run] in E. apply handle_ok in E as [(r1 & a & E & [= <- <-]) | (s & e & _ & [= <- <-])];
      eauto using suffix_refl.
  - cbn [run] in E. apply bind_ok in E as (r1 & a & _ & [= <- <-]). apply suffix_refl.
  - rewrite run_many0_loop in E. apply many_loop_ok in E as [S _]; eauto using steps_suffix, suffix_len, N.le_refl.
  - rewrite run_many1_loop in E. apply bind_ok in E as (r1 & a & E1 & E2). apply bind_ok in E2 as (r2 & l2 & E2 & [= <- <-]).
    apply many_loop_ok in E2 as [S _]; eauto using suffix_trans, steps_suffix, suffix_len.
  - cbn [run] in E. apply handle_ok in E as [(r1 & a & E & [= <- <-]) | (s & e & _ & E)]; eauto.
  - cbn [run] in E. apply bind_ok in E as (r1 & a & E1 & E2). destruct (f a); [|discriminate].
    injection E2 as <- <-. eauto.
  - cbn [run] in E. apply bind_ok in E as (r1 & a & _ & [= <- <-]). apply suffix_refl.
  - injection E as <- <-. apply suffix_refl.
  - apply run_idx_ok in E as (H & -> & _). apply suffix_sdrop, H.
  - discriminate.
Qed.

Lemma run_len A (p : P A) i r a : run p i = Ok r a -> slen r <= slen i.
Proof. intros H. eapply suffix_len, run_suffix, H. Qed.

(* The two repeaters at the level of [run]: the fuel is gone.  Both walk the same steps to the
   first j from which p does not step and read their answer off [run p j]; they differ in the kind
   reported there and in what an Error of the very first call becomes. *)
Lemma run_many_spec A (p : P A) i : exists l j,
  steps (run p) i l j /\ halts (run p) j /\
  run (Many0 p) i = loop_end KMany0 (run p) l j /\
  run (Many1 p) i = match run p i with Err s e => Err s e | _ => loop_end KMany1 (run p) l j end.
Proof.
  destruct (steps_total (run p) (run_len A p) (bytes i) i (N.le_refl _)) as (l & j & S & Hj).
  exists l, j. split; [exact S|]. split; [exact Hj|]. split.
  - exact (many_loop_steps _ _ (run_len A p) _ _ _ S Hj _ (N.le_refl _)).
  - rewrite run_many1_loop. destruct S as [i|i r a l j E Hne S].
    + (* no step from i: the loop of many1, if entered, halts at once *)
      unfold loop_end. destruct (run p i) as [r a| | | | |] eqn:E; try reflexivity. cbn [handle].
      pose proof (suffix_same_len _ _ (run_suffix _ _ _ _ _ E) (Hj _ _ E)) as ->.
      rewrite (many_loop_halts _ _ _ _ Hj). unfold loop_end. rewrite E. reflexivity.
    + (* the loop of many1 follows the rest of the same steps *)
      rewrite E. cbn [handle]. rewrite (many_loop_steps _ _ (run_len A p) _ _ _ S Hj) by (eapply run_len, E).
      apply loop_end_cons.
Qed.

Lemma run_many0_ok A (p : P A) i r l :
  run (Many0 p) i = Ok r l <-> steps (run p) i l r /\ exists s e, run p r = Err s e.
Proof.
  split.
  - destruct (run_many_spec A p i) as (l0 & j & S & _ & -> & _). intros (-> & -> & H)%loop_end_ok. auto.
  - intros [S (s & e & E)]. rewrite run_many0_loop, (many_loop_steps _ _ (run_len A p) _ _ _ S).
    + unfold loop_end. rewrite E. reflexivity.
    + intros ? ?. rewrite E. discriminate.
    + apply N.le_refl.
Qed.

(* A successful many1 is a successful many0 with at least one value.  (The first call of many1 is
   not checked for progress, but p is a function: had it consumed nothing, the loop's first turn
   would repeat it and report KMany1.) *)
Lemma run_many1_ok A (p : P A) i r l :
  run (Many1 p) i = Ok r l <-> run (Many0 p) i = Ok r l /\ l <> [].
Proof.
  destruct (run_many_spec A p i) as (l0 & j & S & _ & -> & ->). split.
  - intros H. destruct S as [i|i r1 a l0 j E _ S].
    + unfold loop_end in H. destruct (run p i); discriminate.
    + rewrite E in H. apply loop_end_ok in H as (-> & -> & s & e & Ej).
      unfold loop_end. rewrite Ej. split; [reflexivity | discriminate].
  - intros [(-> & -> & s & e & Ej)%loop_end_ok Hl]. destruct S as [i|i r1 a l0 j E _ S]; [congruence|].
    rewrite E. unfold loop_end. rewrite Ej. reflexivity.
Qed.

Definition safe {A} (r : res A) : Prop :=
  match r with Panic | OutOfFuel => False | _ => True end.
Definition Safe {A} (p : P A) : Prop := forall i, safe (run p i).

Lemma safe_handle {A B} (x : res A) (k : slice -> A -> res B) h :
  safe x -> (forall r a, safe (k r a)) -> (forall s e, safe (h s e)) -> safe (handle x k h).
Proof. intros Hx Hk Hh. destruct x; cbn in *; auto. Qed.

Lemma safe_loop_end {A} k (f : slice -> res A) l j : safe (f j) -> safe (loop_end k f l j).
Proof. intros H. apply safe_handle; [exact H | exact (fun _ _ => I)..]. Qed.

Lemma Safe_ret A (a : A) : Safe (Ret a).
Proof. intros i; exact I. Qed.
Lemma Safe_errk A k : Safe (@ErrK A k).
Proof. intros i; exact I. Qed.
Lemma Safe_bind A B (p : P A) (k : A -> P B) :
  Safe p -> (forall a, Safe (k a)) -> Safe (Bind p k).
Proof. intros Hp Hk i. apply safe_handle; [apply Hp | intros r a; apply Hk | exact (fun _ _ => I)]. Qed.
Lemma Safe_take n : Safe (Take n).
Proof. intros i. rewrite run_take. destruct (_ <? _); exact I. Qed.
Lemma Safe_beu k : Safe (BeU k).
Proof. intros i. rewrite run_beu. destruct (_ <? _); exact I. Qed.
Lemma Safe_tag t : Safe (TagB t).
Proof. intros i; cbn [run]. destruct (tag_cmp t (bytes i)) as [[|]|]; exact I. Qed.
Lemma Safe_cmpl A (p : P A) : Safe p -> Safe (Cmpl p).
Proof. intros Hp i; cbn [run]. specialize (Hp i). destruct (run p i); auto. Qed.
Lemma Safe_opt A (p : P A) : Safe p -> Safe (Opt p).
Proof. intros Hp i. apply safe_handle; [apply Hp | exact (fun _ _ => I)..]. Qed.
Lemma Safe_on A s (p : P A) : Safe p -> Safe (On s p).
Proof. intros Hp i. apply safe_handle; [apply Hp | exact (fun _ _ => I)..]. Qed.
Lemma Safe_many0 A (p : P A) : Safe p -> Safe (Many0 p).
Proof. intros Hp i. destruct (run_many_spec A p i) as (l & j & _ & _ & -> & _). apply safe_loop_end, Hp. Qed.
Lemma Safe_many1 A (p : P A) : Safe p -> Safe (Many1 p).
Proof.
  intros Hp i. destruct (run_many_spec A p i) as (l & j & _ & _ & _ & ->).
  destruct (run p i); [| exact I | ..]; apply safe_loop_end, Hp.
Qed.
Lemma Safe_alt A (p q : P A) : Safe p -> Safe q -> Safe (Alt p q).
Proof. intros Hp Hq i. apply safe_handle; [apply Hp | exact (fun _ _ => I) | intros _ _; apply Hq]. Qed.
Lemma Safe_vrfy A (p : P A) f : Safe p -> Safe (Vrfy p f).
Proof.
  intros Hp i. apply safe_handle; [apply Hp | | exact (fun _ _ => I)].
  intros r a. destruct (f a); exact I.
Qed.
Lemma Safe_peek A (p : P A) : Safe p -> Safe (Peek p).
Proof. intros Hp i. apply safe_handle; [apply Hp | exact (fun _ _ => I)..]. Qed.
Lemma Safe_geti : Safe GetI.
Proof. intros i; exact I. Qed.

Lemma Safe_count_u8 n : Safe (count_u8 n).
Proof.
  induction n as [|n IH]; cbn [count_u8]; [apply Safe_ret|].
  apply Safe_bind; [apply Safe_beu|]. intros x. apply Safe_bind; [exact IH|]. intros; apply Safe_ret.
Qed.

(* Locality: a decided outcome survives appending x to the input.  The remainder grows by x; an error
   keeps its kind, at a position that grows by x or, when it lies in a slice cut out earlier (On),
   stays as it is.  Incomplete promises nothing: more bytes may decide either way. *)
Definition ext_rel {A} (x : list byte) (r r' : res A) : Prop :=
  match r with
  | Ok rem a => r' = Ok (sapp rem x) a
  | Err s k => exists s', r' = Err s' k /\ (s' = s \/ s' = sapp s x)
  | Fail s k => exists s', r' = Fail s' k /\ (s' = s \/ s' = sapp s x)
  | Incomplete _ => True
  | Panic => r' = Panic
  | OutOfFuel => True
  end.
Definition Stable {A} (p : P A) : Prop := forall i x, ext_rel x (run p i) (run p (sapp i x)).

Lemma ext_rel_handle {A B} x (a a' : res A) (k k' : slice -> A -> res B) h h' :
  ext_rel x a a' ->
  (forall r v, ext_rel x (k r v) (k' (sapp r x) v)) ->
  (forall s s' e, s' = s \/ s' = sapp s x -> ext_rel x (h s e) (h' s' e)) ->
  ext_rel x (handle a k h) (handle a' k' h').
Proof.
  intros Ha Hk Hh. destruct a; cbn [ext_rel handle] in *; auto.
  - rewrite Ha. apply Hk.
  - destruct Ha as [s' [-> Hs]]. apply Hh, Hs.
  - destruct Ha as [s' [-> Hs]]. cbn. eauto.
  - rewrite Ha. reflexivity.
Qed.

Lemma Stable_ret A (a : A) : Stable (Ret a).
Proof. intros i x. reflexivity. Qed.
Lemma Stable_errk A k : Stable (@ErrK A k).
Proof. intros i x; cbn. eauto. Qed.
Lemma Stable_bind A B (p : P A) (k : A -> P B) :
  Stable p -> (forall a, Stable (k a)) -> Stable (Bind p k).
Proof. intros Hp Hk i x. cbn [run]. apply ext_rel_handle; [apply Hp | intros; apply Hk | cbn; eauto]. Qed.
Lemma Stable_take n : Stable (Take n).
Proof.
  intros i x; cbn [run sapp bytes off]. destruct (split_at (bytes i) n) as [[p r]|] eqn:E; [|exact I].
  rewrite (split_at_app _ x _ _ _ E). reflexivity.
Qed.
Lemma Stable_beu k : Stable (BeU k).
Proof.
  intros i x; cbn [run sapp bytes off]. destruct (split_at (bytes i) _) as [[p r]|] eqn:E; [|exact I].
  rewrite (split_at_app _ x _ _ _ E). reflexivity.
Qed.
Lemma Stable_tag t : Stable (TagB t).
Proof.
  intros i x; cbn [run]. destruct (tag_cmp t (bytes i)) as [[|]|] eqn:E; cbn [ext_rel]; [| |exact I].
  - cbn [sapp bytes]. rewrite (tag_cmp_app _ _ x _ E). apply tag_cmp_true in E.
    unfold sdrop, sapp; cbn. rewrite dropN_app_le by lia. reflexivity.
  - cbn [sapp bytes]. rewrite (tag_cmp_app _ _ x _ E). eauto.
Qed.
Lemma Stable_opt A (p : P A) : Stable p -> Stable (Opt p).
Proof. intros Hp i x. cbn [run]. apply ext_rel_handle; [apply Hp | reflexivity..]. Qed.
(* There is no rule for Cmpl, Many0, Many1 or GetI: complete(p) turns an Incomplete into an Error that more bytes
   overturn, and the other three look at the whole input.  A sub-parser confined to a slice ([On]) is stable whatever
   it is, which is what makes the length-framed parsers stable although their bodies use complete and many. *)
Lemma Stable_on A s (p : P A) : Stable (On s p).
Proof.
  intros i x. cbn [run]. destruct (run p s); cbn [ext_rel]; eauto.
Qed.
Lemma Stable_alt A (p q : P A) : Stable p -> Stable q -> Stable (Alt p q).
Proof. intros Hp Hq i x. cbn [run]. apply ext_rel_handle; [apply Hp | reflexivity | intros; apply Hq]. Qed.
Lemma Stable_vrfy A (p : P A) f : Stable p -> Stable (Vrfy p f).
Proof.
  intros Hp i x. cbn [run]. apply ext_rel_handle; [apply Hp | | cbn; eauto].
  intros r v. destruct (f v); cbn; eauto.
Qed.
Lemma Stable_peek A (p : P A) : Stable p -> Stable (Peek p).
Proof. intros Hp i x. cbn [run]. apply ext_rel_handle; [apply Hp | reflexivity | cbn; eauto]. Qed.
Lemma Stable_count_u8 n : Stable (count_u8 n).
Proof.
  induction n as [|n IH]; [apply Stable_ret|].
  apply Stable_bind; [apply Stable_beu|]. intros a. apply Stable_bind; [exact IH|]. intros; apply Stable_ret.
Qed.

(* The rules above are the hints of two databases; `auto with safe` / `auto with stable` is then the syntax-directed
   walk over a parser term.  Constants are opaque to the search, so a named sub-parser is found only through the hint
   registered for its own lemma, never by unfolding it.  A parser that branches (`if`, which is a `match`, included) is
   walked branch by branch. *)
Create HintDb safe discriminated.
#[export] Hint Constants Opaque : safe.
#[export] Hint Resolve Safe_ret Safe_errk Safe_bind Safe_take Safe_beu Safe_tag Safe_cmpl Safe_opt Safe_on
  Safe_many0 Safe_many1 Safe_alt Safe_vrfy Safe_peek Safe_geti Safe_count_u8 : safe.
#[export] Hint Extern 1 (Safe (match ?x with _ => _ end)) => destruct x : safe.
Create HintDb stable discriminated.
#[export] Hint Constants Opaque : stable.
#[export] Hint Resolve Stable_ret Stable_errk Stable_bind Stable_take Stable_beu Stable_tag Stable_opt Stable_on
  Stable_alt Stable_vrfy Stable_peek Stable_count_u8 : stable.
#[export] Hint Extern 1 (Stable (match ?x with _ => _ end)) => destruct x : stable.

Ltac head t := lazymatch t with ?f _ => head f | _ => t end.
