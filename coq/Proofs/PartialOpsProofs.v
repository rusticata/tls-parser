(* C01: the partial operations of the source (regenerated inventory, gen/PartialOps.v, T11) are exactly the places
   the model represents by a panic site; a new index / unwrap / expect / length subtraction in the source that the
   model does not know about makes the obligation below fail. *)
From Coq Require Import String List Bool PeanoNat.
From TlsModel Require Import PartialOps.
Import ListNotations.

(* (file, fn, kind, how many, where the model has it) *)
Definition modelled_partial_ops : list (string * string * string * nat * string) :=
  [("certificate_transparency.rs", "parse_log_id", "expect", 1%nat, "Kx.parse_log_id: PanicP unless the taken slice has 32 bytes");
   ("tls_ec.rs", "parse_named_groups", "index", 4%nat, "Handshake.parse_u16_all: Idx (i[..len]), pairs16/PanicP (chunk[0], chunk[1]); i[len..] is the remainder of Idx");
   ("tls_handshake.rs", "parse_cipher_suites", "index", 4%nat, "Handshake.parse_cipher_suites: Idx, pairs16/PanicP");
   ("tls_handshake.rs", "parse_tls_versions", "index", 4%nat, "Handshake.parse_u16_all: Idx, pairs16/PanicP");
   ("tls_handshake.rs", "parse_compressions_algs", "index", 2%nat, "Handshake.parse_compressions_algs: Idx");
   ("tls_extensions.rs", "parse_tls_extension_status_request_content", "len-sub", 1%nat, "Extensions: ext_len - 1 evaluated only in the non-zero arm");
   ("tls_extensions.rs", "parse_tls_extension_supported_versions_content", "len-sub", 1%nat, "Extensions: PanicP when ext_len = 0 would be reached");
   ("tls_handshake.rs", "parse_tls_handshake_msg_newsessionticket", "len-sub", 1%nat, "Handshake: len - 4 after the len < 4 guard")].

Definition key_eqb (a : string * string * string * string) (f fn k : string) : bool :=
  let '(f', fn', k', _) := a in String.eqb f f' && String.eqb fn fn' && String.eqb k k'.
Definition count_ops (f fn k : string) : nat := length (filter (fun a => key_eqb a f fn k) partial_ops).
Definition allowed (f fn k : string) : nat :=
  fold_right (fun e acc => let '(f', fn', k', n, _) := e in
                           if String.eqb f f' && String.eqb fn fn' && String.eqb k k' then n else acc) 0%nat modelled_partial_ops.
Definition partial_ops_ok : bool :=
  forallb (fun a => let '(f, fn, k, _) := a in Nat.leb (count_ops f fn k) (allowed f fn k)) partial_ops.

(* a row is among those counted for its own key, so its count is positive and with it the number allowed;
   the inventory is made a variable first, so that no step of the proof handles the closed one *)
Theorem partial_ops_modelled : partial_ops_ok = true ->
  forall f fn k e, In (f, fn, k, e) partial_ops -> (count_ops f fn k <= allowed f fn k)%nat /\ (0 < allowed f fn k)%nat.
Proof.
  unfold partial_ops_ok, count_ops. generalize partial_ops. intros ops H f fn k e Hin.
  assert (Hle := proj1 (forallb_forall _ _) H _ Hin).  apply Nat.leb_le in Hle.
  split; [exact Hle|]. apply Nat.lt_le_trans with (2 := Hle).
  assert (Hf : In (f, fn, k, e) (filter (fun a => key_eqb a f fn k) ops)).
  { apply filter_In. split; [exact Hin|]. unfold key_eqb. now rewrite !String.eqb_refl. }
  destruct (filter _ ops); [destruct Hf | apply Nat.lt_0_succ].
Qed.
