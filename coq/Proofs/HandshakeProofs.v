(* C04: handshake messages decode to the values an RFC encoder wrote; bad ones fail. *)
From TlsModel Require Import Handshake Wire Strip BytesLemmas NomGeneric RunLemmas ManyLemmas RtTactics Decodes SafeProofs
  MultiRecordProofs.
From TlsModel Require Import Dispatch.
From TlsModel Require MessageProofs.
From Coq Require Import Lia.

Scheme Equality for hs_body_id.
Definition hs_table_expected : list (N * hs_body_id) :=
  [(0, HB_hello_request); (1, HB_client_hello); (2, HB_server_hello); (4, HB_newsessionticket);
   (5, HB_end_of_early_data); (6, HB_hello_retry_request); (11, HB_certificate); (12, HB_serverkeyexchange);
   (13, HB_certificaterequest); (14, HB_serverdone); (15, HB_certificateverify); (16, HB_clientkeyexchange);
   (20, HB_finished); (22, HB_certificatestatus); (24, HB_key_update); (67, HB_next_protocol)].
Fixpoint table_eqb {A} (eqb : A -> A -> bool) (x y : list (N * A)) : bool :=
  match x, y with
  | [], [] => true
  | (k, a) :: x', (k', a') :: y' => (k =? k') && eqb a a' && table_eqb eqb x' y'
  | _, _ => false
  end.
(* a comparison of lookups that would tolerate reordered arms; [hs_tables_std] below compares the lists in order *)
Definition same_lookup {A} (eqb : A -> A -> bool) (x y : list (N * A)) : bool :=
  forallb (fun k => match assoc_N k x, assoc_N k y with
                    | Some a, Some b => eqb a b | None, None => true | _, _ => false end)
          (map fst x ++ map fst y).
Definition sh_form_eqb (a b : sh_form) : bool :=
  match a, b with
  | ShV12 x, ShV12 y => Bool.eqb x y
  | ShV13Draft18, ShV13Draft18 => true
  | _, _ => false
  end.
Definition sh_msg_expected : list (N * sh_form) :=
  [(32530, ShV13Draft18); (771, ShV12 true); (770, ShV12 true); (769, ShV12 true); (768, ShV12 false)].
Definition sh_expected : list (N * sh_form) :=
  [(771, ShV12 true); (770, ShV12 true); (769, ShV12 true); (768, ShV12 false)].
Lemma sh_form_eqb_eq a b : sh_form_eqb a b = true -> a = b.
Proof. destruct a as [x|], b as [y|]; try discriminate; try reflexivity. intros H; apply Bool.eqb_prop in H; now subst. Qed.

Definition hs_tables_std : bool :=
  table_eqb hs_body_id_beq hs_table hs_table_expected &&
  table_eqb sh_form_eqb sh_msg_versions sh_msg_expected && table_eqb sh_form_eqb sh_versions sh_expected.
(* [table_eqb] is, by conversion, the fixpoint of the same name that compares the record table: its lemma applies *)
Lemma hs_tables_are : hs_tables_std = true ->
  hs_table = hs_table_expected /\ sh_msg_versions = sh_msg_expected /\ sh_versions = sh_expected.
Proof.
  unfold hs_tables_std. intros H. apply andb_prop in H as [H H3]. apply andb_prop in H as [H1 H2].
  repeat split; eapply MessageProofs.table_eqb_eq; eauto using internal_hs_body_id_dec_bl, sh_form_eqb_eq.
Qed.

Definition lift_hs (rest : slice) (r : res TlsMessageHandshake) : res TlsMessage :=
  match r with
  | Ok _ v => Ok rest (MHandshake v)
  | Err s k => Err s k | Fail s k => Fail s k
  | Incomplete n => Incomplete n | Panic => Panic | OutOfFuel => OutOfFuel
  end.

Theorem handshake_fields ht hl body o :
  ht < 256 -> hl < 16777216 ->
  run parse_tls_message_handshake (mkS o (u8 ht ++ u24 hl ++ body)) =
    if lenN body <? hl then Incomplete (Size (hl - lenN body)) else
    match assoc_N ht hs_table with
    | Some b => lift_hs (mkS (o + 4 + hl) (dropN body hl)) (run (hs_body b hl) (mkS (o + 4) (takeN body hl)))
    | None => Err (mkS (o + 4 + hl) (dropN body hl)) KSwitch
    end.
Proof.
  intros Ht Hl. unfold parse_tls_message_handshake. do 2 rt_step. rewrite run_bind, run_take_at.
  replace (o + 1 + 3) with (o + 4) by lia.
  destruct (lenN body <? hl); [reflexivity|]. destruct (assoc_N ht hs_table) as [b|]; [|reflexivity].
  apply run_on_ret.
Qed.

Theorem handshake_char ht body rest o :
  ht < 256 -> lenN body < 16777216 ->
  run parse_tls_message_handshake (mkS o (u8 ht ++ u24 (lenN body) ++ body ++ rest)) =
    match assoc_N ht hs_table with
    | Some b => lift_hs (mkS (o + 4 + lenN body) rest) (run (hs_body b (lenN body)) (mkS (o + 4) body))
    | None => Err (mkS (o + 4 + lenN body) rest) KSwitch
    end.
Proof.
  intros Ht Hl. rewrite handshake_fields by assumption. now rewrite lenN_app_ge, takeN_app_exact, dropN_app_exact.
Qed.

Lemma pairs16_cat l : Forall (fun v => v < 65536) l -> pairs16 (cat u16 l) = Some l.
Proof.
  induction 1 as [|v l Hv _ IH]; [reflexivity|].
  change (cat u16 (v :: l)) with (n2b (v / 256) :: n2b v :: cat u16 l). cbn [pairs16]. rewrite IH, !b2n_n2b.
  do 2 f_equal. rewrite (N.mod_small (v / 256)) by (apply N.div_lt_upper_bound; lia). lia.
Qed.
Lemma map_b2n_cat l : Forall (fun v => v < 256) l -> map b2n (cat u8 l) = l.
Proof.
  induction 1 as [|v l Hv _ IH]; [reflexivity|].
  change (cat u8 (v :: l)) with (n2b v :: cat u8 l). cbn [map]. now rewrite IH, b2n_n2b, N.mod_small.
Qed.

Lemma dec_cipher_suites l o rest (Q : list N -> Prop) : Forall (fun v => v < 65536) l -> Q l ->
  decodes (parse_cipher_suites (lenN (cat u16 l))) o (cat u16 l) rest Q.
Proof.
  intros Hl HQ. unfold parse_cipher_suites. destruct (N.eqb_spec (lenN (cat u16 l)) 0) as [E|_].
  - rewrite lenN_cat_u16 in E. destruct l; [now apply dec_ret | cbn [lenN] in E; lia].
  - apply dec_checked_idx; [rewrite lenN_cat_u16; apply N.eqb_neq; lia|].
    cbn [bytes]. rewrite (pairs16_cat l Hl). now apply dec_ret.
Qed.
Lemma dec_compressions l o rest (Q : list N -> Prop) : Forall (fun v => v < 256) l -> Q l ->
  decodes (parse_compressions_algs (lenN (cat u8 l))) o (cat u8 l) rest Q.
Proof.
  intros Hl HQ. unfold parse_compressions_algs. destruct (N.eqb_spec (lenN (cat u8 l)) 0) as [E|_].
  - rewrite lenN_cat_u8 in E. destruct l; [now apply dec_ret | cbn [lenN] in E; lia].
  - apply (dec_checked_idx _ false); [reflexivity|]. cbn [bytes]. rewrite (map_b2n_cat l Hl). now apply dec_ret.
Qed.
Lemma dec_u16_all l o (Q : list N -> Prop) : Forall (fun v => v < 65536) l -> Q l ->
  decodes parse_u16_all o (cat u16 l) [] Q.
Proof.
  intros Hl HQ. destruct (dec_cipher_suites l o [] Q Hl HQ) as [v [E H]]. exists v. split; [|exact H].
  rewrite run_u16_all_is.  now rewrite app_nil_r in *.
Qed.

(* the optional extension block at the very end of a body: absent <> empty *)
Definition wf_optext (e : option slice) : Prop := forall s, e = Some s -> slen s < 65536.
Lemma dec_opt_ext e o (Q : option slice -> Prop) : wf_optext e -> (forall e', so e' = so e -> Q e') ->
  decodes opt_ext o (enc_optext e) [] Q.
Proof.
  intros He HQ. destruct e as [s|].
  - apply dec_opt_some, dec_cmpl, dec_vec; [exact (He s eq_refl) | now apply HQ].
  - apply dec_opt_none; [apply stops_bind_beu_nil; lia | now apply HQ].
Qed.

(* session id: absent (length 0) or 1..32 bytes *)
Definition wf_sid (s : option slice) : Prop := match s with None => True | Some s => 1 <= slen s <= 32 end.
(* the fields that follow are asked for at every offset, so that no derivation has to compute the one they start at *)
Lemma dec_sid B (K : option slice -> P B) s o e2 rest Q : wf_sid s ->
  (forall s' o', so s' = so s -> decodes (K s') o' e2 rest Q) ->
  decodes (let* sidlen := Vrfy be_u8 (fun n => n <=? 32) in let* sid := cond (0 <? sidlen) (Take sidlen) in K sid)
          o (enc_sid s ++ e2) rest Q.
Proof.
  intros Hs HK. destruct s as [s|]; cbn [enc_sid wf_sid] in *; unfold slen in Hs.
  - unfold vec8. rewrite <- app_assoc. apply dec_bind, dec_vrfy, dec_beu; [lia|]. split; [apply N.leb_le; lia|].
    replace (0 <? lenN (bytes s)) with true by (symmetry; apply N.ltb_lt; lia).
    apply dec_bind, dec_pmap, dec_take; [reflexivity|]. now apply HK.
  - apply dec_bind, dec_vrfy, dec_beu; [lia|]. split; [reflexivity|]. apply dec_ret_bind. now apply HK.
Qed.

(* a session id longer than 32 bytes is refused where its length is read, whatever the hello form reads after it *)
Lemma hello_sid_gt_32 A (k : N -> slice -> N -> P A) ver random n rest o :
  ver < 65536 -> lenN random = 32 -> 32 < n < 256 ->
  run (let* version := be_u16 in let* rnd := Take 32 in let* sidlen := Vrfy be_u8 (fun n => n <=? 32) in
       k version rnd sidlen) (mkS o (u16 ver ++ random ++ u8 n ++ rest)) =
    Err (mkS (o + 2 + 32) (u8 n ++ rest)) KVerify.
Proof.
  intros Hv Hr Hn. rt_step. rewrite run_bind, run_take_app by exact Hr. rewrite run_bind, run_vrfy, run_u8_enc by lia.
  destruct (N.leb_spec n 32); [lia | reflexivity].
Qed.

Definition wf_ch (c : ClientHelloC) : Prop :=
  ch_version c < 65536 /\ slen (ch_random c) = 32 /\ wf_sid (ch_sid c) /\
  Forall (fun v => v < 65536) (ch_ciphers c) /\ 2 * lenN (ch_ciphers c) < 65536 /\
  Forall (fun v => v < 256) (ch_comp c) /\ lenN (ch_comp c) < 256 /\ wf_optext (ch_ext c).

Lemma client_hello_rt c o : wf_ch c ->
  decodes parse_tls_handshake_client_hello o (enc_client_hello c) [] (fun c' => strip_ch c' = strip_ch c).
Proof.
  intros (Hv & Hr & Hs & Hc & Hcl & Hco & Hcol & He).
  unfold parse_tls_handshake_client_hello, enc_client_hello, vec16, vec8. rewrite <- !app_assoc.
  do 2 dec_field.
  apply dec_sid; [exact Hs|]. intros s' o' Hss.
  apply dec_bind, dec_beu; [rewrite lenN_cat_u16; lia|]. apply dec_bind, dec_cipher_suites; [exact Hc|].
  apply dec_bind, dec_beu; [rewrite lenN_cat_u8; lia|]. apply dec_bind, dec_compressions; [exact Hco|].
  apply dec_last, dec_opt_ext; [exact He|]. intros e' Hee. apply dec_ret.
  unfold strip_ch; cbn. now rewrite Hss, Hee.
Qed.

Definition wf_sh (c : ServerHelloC) : Prop :=
  In (sh_version c) [768; 769; 770; 771] /\ slen (sh_random c) = 32 /\ wf_sid (sh_sid c) /\
  sh_cipher c < 65536 /\ sh_comp c < 256 /\ wf_optext (sh_ext c) /\ (sh_version c = 768 -> sh_ext c = None).

Lemma server_hello_v12_rt c o has_ext : sh_version c < 65536 -> slen (sh_random c) = 32 -> wf_sid (sh_sid c) ->
  sh_cipher c < 65536 -> sh_comp c < 256 -> wf_optext (sh_ext c) -> (has_ext = false -> sh_ext c = None) ->
  decodes (parse_tls_server_hello_tlsv12 has_ext) o (enc_server_hello c) [] (fun c' => strip_sh c' = strip_sh c).
Proof.
  intros Hv Hr Hs Hc Hco He Hx. unfold parse_tls_server_hello_tlsv12, enc_server_hello.
  do 2 dec_field.
  apply dec_sid; [exact Hs|]. intros s' o' Hss.
  do 2 dec_field.
  destruct has_ext.
  - apply dec_last, dec_opt_ext; [exact He|]. intros e' Hee. apply dec_ret. unfold strip_sh; cbn. now rewrite Hss, Hee.
  - rewrite (Hx eq_refl). apply dec_ret_bind, dec_ret. unfold strip_sh; cbn. now rewrite Hss, (Hx eq_refl).
Qed.

Definition wf_sh13 (c : ServerHello13C) : Prop :=
  sh13_version c = 32530 /\ slen (sh13_random c) = 32 /\ sh13_cipher c < 65536 /\ wf_optext (sh13_ext c).
Definition wf_hrr (c : HelloRetryC) : Prop := hrr_version c < 65536 /\ hrr_cipher c < 65536 /\ wf_optext (hrr_ext c).

Lemma progress_length_data k : (0 < k)%nat -> progress (length_data (BeU k)).
Proof. intros Hk. unfold length_data. apply progress_bind_l, progress_beu. exact Hk. Qed.

Lemma vec_rt k : roundtrips (length_data (BeU k)) (fun s : slice => be_enc k (slen s) ++ bytes s)
                   (fun s => slen s < 256 ^ N.of_nat k) (fun s' s => ss s' = ss s).
Proof. apply roundtrips_dec. intros s o rest Hs. now apply dec_vec. Qed.
Lemma vec_ne k : (0 < k)%nat -> nonempty_enc (fun s : slice => be_enc k (slen s) ++ bytes s) (fun s => slen s < 256 ^ N.of_nat k).
Proof. intros Hk v _.  rewrite lenN_app, lenN_be_enc. lia. Qed.

Lemma dec_vecs k l o (Q : list slice -> Prop) : (0 < k)%nat -> Forall (fun s => slen s < 256 ^ N.of_nat k) l ->
  (forall l', map ss l' = map ss l -> Q l') ->
  accepts (Many0 (Cmpl (length_data (BeU k)))) (mkS o (cat (fun s : slice => be_enc k (slen s) ++ bytes s) l)) Q.
Proof. intros Hk. apply dec_items; [apply vec_rt | apply vec_ne, Hk | intros j; apply stops_bind_beu_nil, Hk]. Qed.

Definition wf_certs (l : list slice) : Prop :=
  Forall (fun s => slen s < 16777216) l /\ lenN (cat (fun s => vec24 (bytes s)) l) < 16777216.
Lemma certificate_rt l o : wf_certs l ->
  decodes parse_tls_certificate o (vec24 (cat (fun s => vec24 (bytes s)) l)) [] (fun l' => map ss l' = map ss l).
Proof.
  intros [Hs Hl]. unfold parse_tls_certificate. dec_field.
  apply dec_map_parser, dec_take; [reflexivity|]. apply (dec_vecs 3); [lia | exact Hs | auto].
Qed.

Definition wf_ca (l : list slice) : Prop :=
  Forall (fun s => slen s < 65536) l /\ lenN (cat (fun s => vec16 (bytes s)) l) < 65536.
Lemma dec_ca_list l o rest (Q : list slice -> Prop) : wf_ca l -> (forall l', map ss l' = map ss l -> Q l') ->
  decodes ca_list o (vec16 (cat (fun s => vec16 (bytes s)) l)) rest Q.
Proof.
  intros [Hs Hl] HQ. unfold ca_list. dec_field.
  apply dec_map_parser, dec_take; [reflexivity|]. apply (dec_vecs 2); [lia | exact Hs | exact HQ].
Qed.

Lemma dec_count_u8 l o rest (Q : list N -> Prop) : Forall (fun v => v < 256) l -> Q l ->
  decodes (count_u8 (length l)) o (cat u8 l) rest Q.
Proof.
  intros H; revert o Q; induction H as [|v l Hv _ IH]; intros o Q HQ; [now apply dec_ret|].
  change (cat u8 (v :: l)) with (u8 v ++ cat u8 l). dec_field. apply dec_last, IH. now apply dec_ret.
Qed.
Lemma dec_length_count l o rest (Q : list N -> Prop) : Forall (fun v => v < 256) l -> lenN l < 256 -> Q l ->
  decodes length_count_u8_u8 o (vec8 (cat u8 l)) rest Q.
Proof.
  intros H Hl HQ. unfold length_count_u8_u8, vec8. rewrite lenN_cat_u8. dec_field.
  rewrite lenN_length, Nat2N.id. now apply dec_count_u8.
Qed.

Definition wf_cr (c : CertRequestC) : Prop :=
  Forall (fun v => v < 256) (cr_types c) /\ lenN (cr_types c) < 256 /\ wf_ca (cr_ca c) /\
  match cr_sigalgs c with Some l => Forall (fun v => v < 65536) l /\ 2 * lenN l < 65536 | None => True end.

Lemma u16_rt : roundtrips be_u16 u16 (fun v => v < 65536) eq.
Proof. apply roundtrips_dec. intros v o rest Hv. now apply dec_beu. Qed.
Lemma u16_ne : nonempty_enc u16 (fun v => v < 65536).
Proof. intros v _. rewrite lenN_u16. lia. Qed.
Lemma dec_u16s l o (Q : list N -> Prop) : Forall (fun v => v < 65536) l -> Q l ->
  accepts (Many0 (Cmpl be_u16)) (mkS o (cat u16 l)) Q.
Proof.
  intros Hl HQ. eapply (dec_items _ _ _ _ _ id); [exact u16_rt | exact u16_ne | intros j; apply stops_beu_nil; lia | exact Hl|].
  intros l'. rewrite !map_id. now intros ->.
Qed.

Definition cr_eqv (c' c : CertRequestC) : Prop :=
  cr_types c' = cr_types c /\ cr_sigalgs c' = cr_sigalgs c /\ map ss (cr_ca c') = map ss (cr_ca c).

Lemma cr_full_rt types sigs cas o rest :
  Forall (fun v => v < 256) types -> lenN types < 256 -> wf_ca cas ->
  Forall (fun v => v < 65536) sigs -> 2 * lenN sigs < 65536 ->
  decodes parse_certrequest_full o (enc_cert_request (mkCR types (Some sigs) cas)) rest (fun c' => cr_eqv c' (mkCR types (Some sigs) cas)).
Proof.
  intros Ht Htl Hca Hs Hsl. unfold parse_certrequest_full, enc_cert_request, vec16 at 1; cbn [cr_types cr_sigalgs cr_ca].
  rewrite <- !app_assoc. apply dec_bind, dec_length_count; [exact Ht | exact Htl|].
  apply dec_bind, dec_beu; [rewrite lenN_cat_u16; lia|].
  apply dec_bind, dec_map_parser, dec_take; [reflexivity|]. apply dec_u16s; [exact Hs|].
  apply dec_last, dec_ca_list; [exact Hca|]. intros l' Hl'. apply dec_ret. repeat split. exact Hl'.
Qed.

Lemma cr_nosig_rt types cas o rest :
  Forall (fun v => v < 256) types -> lenN types < 256 -> wf_ca cas ->
  decodes parse_certrequest_nosigalg o (enc_cert_request (mkCR types None cas)) rest (fun c' => cr_eqv c' (mkCR types None cas)).
Proof.
  intros Ht Htl Hca. unfold parse_certrequest_nosigalg, enc_cert_request.
  apply dec_bind, dec_length_count; [exact Ht | exact Htl|].
  apply dec_last, dec_ca_list; [exact Hca|]. intros l' Hl'. apply dec_ret. repeat split. exact Hl'.
Qed.

(* on the legacy (no signature algorithms) encoding the TLS 1.2 form takes the CA list for the algorithms
   and then finds nothing left: Incomplete *)
Lemma cr_full_on_nosig types cas o :
  Forall (fun v => v < 256) types -> lenN types < 256 -> wf_ca cas ->
  stops parse_certrequest_full (mkS o (enc_cert_request (mkCR types None cas) ++ [])).
Proof.
  intros Ht Htl [Hs Hl]. unfold parse_certrequest_full, enc_cert_request, vec16; cbn [cr_types cr_sigalgs cr_ca app].
  rewrite <- !app_assoc. apply stops_bind_dec, dec_length_count; [exact Ht | exact Htl|].
  apply stops_bind_dec, dec_beu; [exact Hl|]. apply stops_bind_assoc, stops_bind_dec, dec_take; [reflexivity|].
  apply stops_on; [apply Safe_many0, Safe_cmpl, Safe_beu|]. intros l. apply stops_bind_l, stops_bind_beu_nil. lia.
Qed.

Lemma cert_request_rt c o : wf_cr c ->
  decodes parse_tls_handshake_certificaterequest o (enc_cert_request c) [] (fun c' => cr_eqv c' c).
Proof.
  destruct c as [types [sigs|] cas]; unfold wf_cr; cbn [cr_types cr_sigalgs cr_ca]; intros (Ht & Htl & Hca & Hsig).
  - apply dec_alt_l, dec_cmpl, cr_full_rt; tauto.
  - apply dec_alt_r; [now apply cr_full_on_nosig | now apply dec_cmpl, cr_nosig_rt].
Qed.

(* well-formedness of a handshake value: every length fits its length field, every integer its width,
   the fixed-size fields have their size, and the version selects the ServerHello form.  A ClientKeyExchange is
   well-formed only as `CkeUnknown`: the parser never returns the other two forms, which exist for the serializer *)
Definition wf_hs (h : TlsMessageHandshake) : Prop :=
  lenN (enc_hs_body h) < 16777216 /\
  match h with
  | HHelloRequest | HEndOfEarlyData => True
  | HClientHello c => wf_ch c
  | HServerHello c => wf_sh c
  | HServerHelloV13Draft18 c => wf_sh13 c
  | HNewSessionTicket hint _ => hint < 4294967296
  | HHelloRetryRequest c => wf_hrr c
  | HCertificate l => wf_certs l
  | HServerKeyExchange _ | HServerDone _ | HCertificateVerify _ | HFinished _ => True
  | HClientKeyExchange c => match c with CkeUnknown _ => True | _ => False end
  | HCertificateRequest c => wf_cr c
  | HCertificateStatus t b => t < 256 /\ slen b < 16777216
  | HNextProtocol a b => slen a < 256 /\ slen b < 256
  | HKeyUpdate v => v < 256
  end.

Lemma all_bodies (Ht : hs_tables_std = true) h o : wf_hs h ->
  exists b, assoc_N (hs_type h) hs_table = Some b /\
            accepts (hs_body b (lenN (enc_hs_body h))) (mkS o (enc_hs_body h)) (fun h' => strip_hs h' = strip_hs h).
Proof.
  destruct (hs_tables_are Ht) as (-> & Hshm & _). intros [_ Hw].
  destruct h; cbn [wf_hs hs_type enc_hs_body] in *; (eexists; split; [reflexivity|]); apply dec_accepts; cbn [hs_body].
  - (* HelloRequest *) now apply dec_ret.
  - (* ClientHello *) apply dec_pmap. eapply dec_weaken; [apply client_hello_rt, Hw|]. intros c' Hc. cbn [strip_hs]. now rewrite Hc.
  - (* ServerHello: each of the four versions of [wf_sh] selects the TLS 1.2 form, which reads the extension block
       unless the version is SSLv3 *)
    destruct Hw as (Hv & Hr & Hs & Hc & Hco & He & Hx). assert (Hv16 : sh_version c < 65536) by (cbn [In] in Hv; lia).
    unfold parse_tls_handshake_msg_server_hello. apply dec_peek, dec_beu; [exact Hv16|]. rewrite Hshm.
    replace (assoc_N (sh_version c) sh_msg_expected) with (Some (ShV12 (negb (sh_version c =? 768))))
      by (cbn [In] in Hv; destruct Hv as [E|[E|[E|[E|[]]]]]; rewrite <- E; reflexivity).
    apply dec_pmap. eapply dec_weaken; [apply server_hello_v12_rt; try assumption|].
    + intros Hn. apply Hx. apply Bool.negb_false_iff in Hn. now apply N.eqb_eq in Hn.
    + intros c' Hc'. cbn [strip_hs]. now rewrite Hc'.
  - (* ServerHello of TLS 1.3 draft 18: version 0x7f12 selects its own form *)
    destruct Hw as (Hv & Hr & Hc & He). unfold parse_tls_handshake_msg_server_hello. rewrite Hv.
    apply dec_peek, dec_beu; [lia|]. rewrite Hshm. do 3 dec_field.
    apply dec_last, dec_opt_ext; [exact He|]. intros e' Hee. apply dec_ret. cbn. now rewrite Hee, Hv.
  - (* NewSessionTicket: a u32 and the rest of the body *)
    unfold parse_tls_handshake_msg_newsessionticket. rewrite lenN_app, lenN_u32.
    destruct (N.ltb_spec (4 + lenN (bytes ticket)) 4); [lia|].
    do 2 dec_field. now apply dec_ret.
  - (* EndOfEarlyData *) now apply dec_ret.
  - (* HelloRetryRequest *) destruct Hw as (Hv & Hc & He). do 2 dec_field.
    apply dec_last, dec_opt_ext; [exact He|]. intros e' Hee. apply dec_ret. cbn. now rewrite Hee.
  - (* Certificate *) apply dec_pmap. eapply dec_weaken; [apply certificate_rt, Hw|]. intros l' Hl. cbn [strip_hs]. now rewrite Hl.
  - (* ServerKeyExchange *) now apply dec_pmap, dec_take.
  - (* CertificateRequest *) apply dec_pmap. eapply dec_weaken; [apply cert_request_rt, Hw|]. intros c' (H1 & H2 & H3). cbn [strip_hs]. now rewrite H1, H2, H3.
  - (* ServerDone *) now apply dec_pmap, dec_take.
  - (* CertificateVerify *) now apply dec_pmap, dec_take.
  - (* ClientKeyExchange: only the opaque form is well-formed *)
    destruct c; try contradiction. now apply dec_pmap, dec_pmap, dec_take.
  - (* Finished *) now apply dec_pmap, dec_take.
  - (* CertificateStatus *) apply dec_pmap, dec_bind, dec_beu; [apply Hw|]. dec_field. now apply dec_ret.
  - (* NextProtocol *) apply dec_pmap, dec_bind, dec_vec; [apply Hw|]. dec_field. now apply dec_ret.
  - (* KeyUpdate *) now apply dec_pmap, dec_beu.
Qed.

Theorem handshake_roundtrip (Ht : hs_tables_std = true) v rest o : wf_hs v ->
  exists m', run parse_tls_message_handshake (mkS o (enc_handshake v ++ rest)) =
               Ok (mkS (o + lenN (enc_handshake v)) rest) m' /\ msg_eqv m' (MHandshake v).
Proof.
  intros Hw. unfold enc_handshake, vec24. rewrite <- !app_assoc.
  rewrite handshake_char; [| destruct v; cbn; lia | exact (proj1 Hw)].
  destruct (all_bodies Ht v (o + 4) Hw) as (b & Eb & r & v' & E & Hs). rewrite Eb, E. cbn [lift_hs].
  eexists. split; [do 2 f_equal; solve_off|]. unfold msg_eqv; cbn [strip_msg]. now rewrite Hs.
Qed.

(* handshake messages as a class of record content: what C03_decode_handshake asks of it *)
Definition wf_hs_msg (Ht : hs_tables_std = true) (m : TlsMessage) : Prop :=
  match m with MHandshake h => wf_hs h | _ => False end.
Lemma handshake_msgs_rt Ht : roundtrips parse_tls_message_handshake enc_msg (wf_hs_msg Ht) msg_eqv.
Proof.
  intros m rest o Hw. destruct m; try contradiction. exact (handshake_roundtrip Ht h rest o Hw).
Qed.
Lemma handshake_msgs_ne Ht : nonempty_enc enc_msg (wf_hs_msg Ht).
Proof.
  intros m Hw. destruct m; try contradiction. cbn [enc_msg]. unfold enc_handshake.
  rewrite lenN_app, lenN_u8. lia.
Qed.
