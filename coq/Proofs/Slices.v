(* the slices reachable from each value type of Model/Values.v *)
From TlsModel Require Import Values ProvGeneric.

#[export] Instance HS_hdr : HasSlices TlsRecordHeader := fun _ => [].
#[export] Instance NS_hdr : NoSlices TlsRecordHeader. Proof. intros v; reflexivity. Qed.
#[export] Instance HS_dhdr : HasSlices DTLSRecordHeader := fun _ => [].
#[export] Instance NS_dhdr : NoSlices DTLSRecordHeader. Proof. intros v; reflexivity. Qed.

#[export] Instance HS_CH : HasSlices ClientHelloC := fun c =>
  match c with mkCH _ random sid _ _ ext => slices random ++ slices sid ++ slices ext end.
#[export] Instance HS_SH : HasSlices ServerHelloC := fun c =>
  match c with mkSH _ random sid _ _ ext => slices random ++ slices sid ++ slices ext end.
#[export] Instance HS_SH13 : HasSlices ServerHello13C := fun c =>
  match c with mkSH13 _ random _ ext => slices random ++ slices ext end.
#[export] Instance HS_HRR : HasSlices HelloRetryC := fun c => match c with mkHRR _ _ ext => slices ext end.
#[export] Instance HS_CR : HasSlices CertRequestC := fun c => match c with mkCR _ _ ca => slices ca end.
#[export] Instance HS_CKE : HasSlices ClientKeyExchangeC := fun c =>
  match c with CkeDh s | CkeEcdh s | CkeUnknown s => slices s end.
#[export] Instance HS_HS : HasSlices TlsMessageHandshake := fun h =>
  match h with
  | HHelloRequest | HEndOfEarlyData | HKeyUpdate _ => []
  | HClientHello c => slices c
  | HServerHello c => slices c
  | HServerHelloV13Draft18 c => slices c
  | HNewSessionTicket _ t => slices t
  | HHelloRetryRequest c => slices c
  | HCertificate l => slices l
  | HServerKeyExchange s | HServerDone s | HCertificateVerify s | HFinished s => slices s
  | HCertificateRequest c => slices c
  | HClientKeyExchange c => slices c
  | HCertificateStatus _ b => slices b
  | HNextProtocol a b => slices a ++ slices b
  end.
#[export] Instance HS_Msg : HasSlices TlsMessage := fun m =>
  match m with
  | MHandshake h => slices h
  | MChangeCipherSpec | MAlert _ _ => []
  | MApplicationData b => slices b
  | MHeartbeat _ _ p => slices p
  end.
#[export] Instance HS_Plain : HasSlices TlsPlaintext := fun p => match p with mkPlain _ msg => slices msg end.
#[export] Instance HS_Enc : HasSlices TlsEncrypted := fun p => match p with mkEnc _ b => slices b end.
#[export] Instance HS_Raw : HasSlices TlsRawRecord := fun p => match p with mkRaw _ b => slices b end.

#[export] Instance HS_Ext : HasSlices TlsExtension := fun e =>
  match e with
  | ESNI l => slices l
  | EStatusRequest v => slices v
  | EEcPointFormats s | ESessionTicket s | EKeyShareOld s | EKeyShare s | EPreSharedKey s | ECookie s
  | EPadding s | ERenegotiationInfo s => slices s
  | EALPN l => slices l
  | ESignedCertificateTimestamp v => slices v
  | EOidFilters l => slices l
  | EEncryptedServerName _ _ a b c => slices a ++ slices b ++ slices c
  | EGrease _ s | EUnknown _ s => slices s
  | EMaxFragmentLength _ | EEllipticCurves _ | ESignatureAlgorithms _ | ERecordSizeLimit _ | EEarlyData _
  | ESupportedVersions _ | EPskExchangeModes _ | EHeartbeat _ | EEncryptThenMac | EExtendedMasterSecret
  | EPostHandshakeAuth | ENextProtocolNegotiation => []
  end.

#[export] Instance HS_DH : HasSlices ServerDHParams := fun d => match d with mkDH p g ys => slices p ++ slices g ++ slices ys end.
#[export] Instance HS_EP : HasSlices ExplicitPrimeC := fun c =>
  match c with mkEP p a b base order cof => slices p ++ slices a ++ slices b ++ slices base ++ slices order ++ slices cof end.
#[export] Instance HS_ECPC : HasSlices ECParametersContent := fun c =>
  match c with EcExplicitPrime c => slices c | EcNamedGroup _ => [] end.
#[export] Instance HS_ECP : HasSlices ECParameters := fun p => match p with mkECP _ c => slices c end.
#[export] Instance HS_ECDH : HasSlices ServerECDHParams := fun p => match p with mkECDH a b => slices a ++ slices b end.
#[export] Instance HS_DS : HasSlices DigitallySigned := fun d => match d with mkDS _ data => slices data end.
#[export] Instance HS_SCT : HasSlices SCT := fun s =>
  match s with mkSCT _ id _ ext sig => slices id ++ slices ext ++ slices sig end.

#[export] Instance HS_DCH : HasSlices DTLSClientHelloC := fun c =>
  match c with mkDCH _ random sid cookie _ _ ext => slices random ++ slices sid ++ slices cookie ++ slices ext end.
#[export] Instance HS_DBody : HasSlices DTLSBody := fun b =>
  match b with
  | DHelloRequest => []
  | DClientHello c => slices c
  | DHelloVerifyRequest _ c => slices c
  | DServerHello c => slices c
  | DNewSessionTicket _ t => slices t
  | DHelloRetryRequest c => slices c
  | DCertificate l => slices l
  | DServerKeyExchange s | DServerDone s | DCertificateVerify s | DFinished s | DFragment s => slices s
  | DCertificateRequest c => slices c
  | DClientKeyExchange c => slices c
  | DCertificateStatus _ b => slices b
  | DNextProtocol a b => slices a ++ slices b
  end.
#[export] Instance HS_DHS : HasSlices DTLSMessageHandshake := fun h => match h with mkDHS _ _ _ _ _ b => slices b end.
#[export] Instance HS_DMsg : HasSlices DTLSMessage := fun m =>
  match m with
  | DMHandshake h => slices h
  | DMChangeCipherSpec | DMAlert _ _ => []
  | DMApplicationData b => slices b
  | DMHeartbeat _ _ p => slices p
  end.
#[export] Instance HS_DPlain : HasSlices DTLSPlaintext := fun p => match p with mkDPlain _ m => slices m end.
