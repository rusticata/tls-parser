(* One equation for [run] per constructor of [P] (Take, BeU and Idx in closed form through
   [split_at_spec]), their inversions, and [run] on an input that starts with an encoded field. *)
From TlsModel Require Import Nom BytesLemmas.
From Coq Require Import Lia.

Lemma sdrop_sdrop s n m : sdrop (sdrop s n) m = sdrop s (n + m).
Proof. unfold sdrop; cbn. rewrite dropN_dropN. f_equal; lia. Qed.
Lemma sdrop_0 s : sdrop s 0 = s.
Proof. destruct s; unfold sdrop; cbn. rewrite dropN_0. f_equal; lia. Qed.
Lemma slen_sdrop s n : slen (sdrop s n) = slen s - n.
Proof. unfold slen, sdrop. apply lenN_dropN. Qed.
Lemma slen_stake s n : n <= slen s -> slen (stake s n) = n.
Proof. apply lenN_takeN. Qed.
Lemma bytes_sdrop s n : bytes (sdrop s n) = dropN (bytes s) n.
Proof. reflexivity. Qed.

Lemma run_ret A (a : A) i : run (Ret a) i = Ok i a.
Proof. reflexivity. Qed.
Lemma run_errk A k i : run (@ErrK A k) i = Err i k.
Proof. reflexivity. Qed.
Lemma run_bind A B (p : P A) (k : A -> P B) i :
  run (Bind p k) i = match run p i with
                     | Ok r a => run (k a) r
                     | Err s e => Err s e | Fail s e => Fail s e
                     | Incomplete n => Incomplete n | Panic => Panic | OutOfFuel => OutOfFuel
                     end.
Proof. reflexivity. Qed.

Lemma run_bind_assoc A B C (p : P A) (f : A -> P B) (g : B -> P C) i :
  run (Bind (Bind p f) g) i = run (Bind p (fun x => Bind (f x) g)) i.
Proof. rewrite !run_bind. destruct (run p i); reflexivity. Qed.

Lemma run_bind_cong A B (p : P A) (k k' : A -> P B) i :
  (forall r a, run p i = Ok r a -> run (k a) r = run (k' a) r) -> run (Bind p k) i = run (Bind p k') i.
Proof. intros H. rewrite !run_bind. destruct (run p i); try reflexivity. now apply H. Qed.

Lemma mk_needed_pos n : 0 < n -> mk_needed n = Size n.
Proof. intros H. unfold mk_needed. destruct (N.eqb_spec n 0); [lia | reflexivity]. Qed.

(* Take, BeU and Idx with the test the source makes (`i.len() < n`); the count missing is then positive *)
Lemma run_beu k i :
  run (BeU k) i = if slen i <? N.of_nat k then Incomplete (Size (N.of_nat k - slen i))
                  else Ok (sdrop i (N.of_nat k)) (be_val (takeN (bytes i) (N.of_nat k))).
Proof.
  cbn [run]. rewrite split_at_spec. fold (slen i).
  destruct (N.ltb_spec (slen i) (N.of_nat k)); [now rewrite mk_needed_pos by lia | reflexivity].
Qed.
Lemma run_bind_beu A k (f : N -> P A) i :
  run (Bind (BeU k) f) i =
    if slen i <? N.of_nat k then Incomplete (Size (N.of_nat k - slen i))
    else run (f (be_val (takeN (bytes i) (N.of_nat k)))) (sdrop i (N.of_nat k)).
Proof. rewrite run_bind, run_beu. now destruct (slen i <? N.of_nat k). Qed.

Lemma run_take n i :
  run (Take n) i = if slen i <? n then Incomplete (Size (n - slen i)) else Ok (sdrop i n) (stake i n).
Proof.
  cbn [run]. rewrite split_at_spec. fold (slen i).
  destruct (N.ltb_spec (slen i) n); [now rewrite mk_needed_pos by lia | reflexivity].
Qed.

Lemma run_idx n i : run (Idx n) i = if slen i <? n then Panic else Ok (sdrop i n) (stake i n).
Proof. cbn [run]. rewrite split_at_spec. fold (slen i). destruct (slen i <? n); reflexivity. Qed.

Lemma run_on A s (p : P A) i :
  run (On s p) i = match run p s with
                   | Ok _ a => Ok i a
                   | Err s k => Err s k | Fail s k => Fail s k
                   | Incomplete n => Incomplete n | Panic => Panic | OutOfFuel => OutOfFuel
                   end.
Proof. reflexivity. Qed.
(* a confined sub-parser whose value is wrapped: the shape of the [lift_*] functions of the characterisations *)
Lemma run_on_ret A B s (p : P A) (f : A -> B) i :
  run (let* a := On s p in Ret (f a)) i = match run p s with
                                           | Ok _ a => Ok i (f a)
                                           | Err s k => Err s k | Fail s k => Fail s k
                                           | Incomplete n => Incomplete n | Panic => Panic | OutOfFuel => OutOfFuel
                                           end.
Proof. rewrite run_bind, run_on. destruct (run p s); reflexivity. Qed.
Lemma run_geti i : run GetI i = Ok i i.
Proof. reflexivity. Qed.
Lemma run_cmpl A (p : P A) i : run (Cmpl p) i = match run p i with Incomplete _ => Err i KComplete | r => r end.
Proof. reflexivity. Qed.
Lemma run_cmpl_ok A (p : P A) i r a : run p i = Ok r a -> run (Cmpl p) i = Ok r a.
Proof. intros E. rewrite run_cmpl, E. reflexivity. Qed.
Lemma run_cmpl_inv A (p : P A) i r a : run (Cmpl p) i = Ok r a -> run p i = Ok r a.
Proof. rewrite run_cmpl. destruct (run p i); easy. Qed.
Lemma run_opt A (p : P A) i :
  run (Opt p) i = match run p i with
                  | Ok r a => Ok r (Some a)
                  | Err _ _ => Ok i None
                  | Fail s k => Fail s k
                  | Incomplete n => Incomplete n | Panic => Panic | OutOfFuel => OutOfFuel
                  end.
Proof. reflexivity. Qed.
Lemma run_peek A (p : P A) i : run (Peek p) i = match run p i with Ok _ a => Ok i a | r => r end.
Proof. reflexivity. Qed.
Lemma run_alt A (p q : P A) i : run (Alt p q) i = match run p i with Err _ _ => run q i | r => r end.
Proof. reflexivity. Qed.

Lemma run_vrfy A (p : P A) f i :
  run (Vrfy p f) i = match run p i with Ok r a => if f a then Ok r a else Err i KVerify | r => r end.
Proof. reflexivity. Qed.

Lemma run_tag t i :
  run (TagB t) i = match tag_cmp t (bytes i) with
                   | Some true => Ok (sdrop i (lenN t)) tt
                   | Some false => Err i KTag
                   | None => Incomplete (mk_needed (lenN t - slen i))
                   end.
Proof. reflexivity. Qed.
Lemma run_many0 A (q : P A) i : run (Many0 q) i = many0_run (fun j => run q j) i.
Proof. reflexivity. Qed.
Lemma run_many1 A (q : P A) i : run (Many1 q) i = many1_run (fun j => run q j) i.
Proof. reflexivity. Qed.

Lemma run_take_ok n i r d : run (Take n) i = Ok r d -> n <= slen i /\ r = sdrop i n /\ d = stake i n.
Proof. rewrite run_take. destruct (N.ltb_spec (slen i) n); [discriminate|]. now intros [= <- <-]. Qed.
Lemma run_idx_ok n i r d : run (Idx n) i = Ok r d -> n <= slen i /\ r = sdrop i n /\ d = stake i n.
Proof. rewrite run_idx. destruct (N.ltb_spec (slen i) n); [discriminate|]. now intros [= <- <-]. Qed.
Lemma run_beu_ok k i r v : run (BeU k) i = Ok r v ->
  N.of_nat k <= slen i /\ r = sdrop i (N.of_nat k) /\ v = be_val (takeN (bytes i) (N.of_nat k)).
Proof. rewrite run_beu. destruct (N.ltb_spec (slen i) (N.of_nat k)); [discriminate|]. now intros [= <- <-]. Qed.

Lemma run_beu_lt k i r n : run (BeU k) i = Ok r n -> n < 256 ^ N.of_nat k.
Proof. intros (H & _ & ->)%run_beu_ok. rewrite <- (lenN_takeN (bytes i) _ H) at 2. apply be_val_bound. Qed.
Lemma run_take_len n i r d : run (Take n) i = Ok r d -> slen d = n.
Proof. intros (H & _ & ->)%run_take_ok. exact (slen_stake _ _ H). Qed.

Lemma run_take_at n b o :
  run (Take n) (mkS o b) =
    if lenN b <? n then Incomplete (Size (n - lenN b)) else Ok (mkS (o + n) (dropN b n)) (mkS o (takeN b n)).
Proof. exact (run_take n (mkS o b)). Qed.
Lemma run_take_short n b o : lenN b < n -> run (Take n) (mkS o b) = Incomplete (Size (n - lenN b)).
Proof. intros H%N.ltb_lt. now rewrite run_take_at, H. Qed.
Lemma run_take_app n b o rest : lenN b = n -> run (Take n) (mkS o (b ++ rest)) = Ok (mkS (o + n) rest) (mkS o b).
Proof. intros <-. now rewrite run_take_at, lenN_app_ge, takeN_app_exact, dropN_app_exact. Qed.
Lemma run_take_all o b : run (Take (lenN b)) (mkS o b) = Ok (mkS (o + lenN b) []) (mkS o b).
Proof. pose proof (run_take_app (lenN b) b o [] eq_refl) as H. now rewrite app_nil_r in H. Qed.

(* an integer read from any k bytes, encoded as one integer or not *)
Lemma run_beu_app k b o rest : lenN b = N.of_nat k ->
  run (BeU k) (mkS o (b ++ rest)) = Ok (mkS (o + N.of_nat k) rest) (be_val b).
Proof.
  intros H. rewrite run_beu, <- H. unfold slen, sdrop; cbn [bytes off].
  now rewrite lenN_app_ge, takeN_app_exact, dropN_app_exact.
Qed.
Lemma run_beu_enc k v o rest :
  v < 256 ^ N.of_nat k ->
  run (BeU k) (mkS o (be_enc k v ++ rest)) = Ok (mkS (o + N.of_nat k) rest) v.
Proof. intros Hv. rewrite run_beu_app by apply lenN_be_enc. now rewrite be_val_enc. Qed.

(* the hand-indexed list decoders share one idiom: look at the input, refuse a bad or overlong length, then
   split by index (which would panic were the guard missing) *)
Lemma run_checked_idx A len bad (k : slice -> P A) i :
  run (let* j := GetI in
       if bad || negb (has_len (bytes j) len) then ErrK KLengthValue else let* s := Idx len in k s) i =
    if bad || (slen i <? len) then Err i KLengthValue else run (k (stake i len)) (sdrop i len).
Proof.
  rewrite run_bind, run_geti, has_len_spec. fold (slen i). rewrite <- N.ltb_antisym.
  destruct (bad || (slen i <? len)) eqn:E; [reflexivity|]. apply Bool.orb_false_elim in E as [_ E].
  now rewrite run_bind, run_idx, E.
Qed.

(* `Ok((&[], c(i)))` in the source: the whole input is the value and nothing remains *)
Lemma run_take_whole A (c : slice -> A) o b :
  run (let* j := GetI in let* s := Take (slen j) in Ret (c s)) (mkS o b) = Ok (mkS (o + lenN b) []) (c (mkS o b)).
Proof. rewrite run_bind, run_geti. unfold slen. now rewrite run_bind, run_take_all. Qed.
