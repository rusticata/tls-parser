(* C05: the single-purpose extension parsers. *)
From TlsModel Require Import Dispatch Extensions ExtEnc BytesLemmas NomGeneric RunLemmas RtTactics ExtProofs.

(* tag([hi,lo]) accepts exactly its own type *)
Theorem tagged_rejects_other_type A (p : P A) t t' rest o : t < 65536 -> t' < 65536 -> t' <> t ->
  run (tagged t p) (mkS o (u16 t' ++ rest)) = Err (mkS o (u16 t' ++ rest)) KTag.
Proof.
  intros Ht Ht' Hne. unfold tagged.  cbn [run bytes].
  rewrite tag_cmp_neq; [reflexivity | unfold u16; rewrite !lenN_be_enc; reflexivity |].
  intros H. apply be_enc_inj in H; auto.
Qed.
Lemma run_tagged_own A (p : P A) t rest o : run (tagged t p) (mkS o (u16 t ++ rest)) = run p (mkS (o + 2) rest).
Proof.
  unfold tagged. rewrite run_bind, run_tag. cbn [bytes]. rewrite tag_cmp_refl. unfold sdrop, u16; cbn [off bytes].
  now rewrite dropN_app_exact, lenN_be_enc.
Qed.

(* after its own type, a single-purpose parser is the generic dispatcher's arm *)
Section Agree.
  Variables (tbl : list (N * ext_content_id)) (t : N) (c : ext_content_id).
  Hypothesis Ht : t < 65536.
  Hypothesis Hg : grease_test t = false.
  Hypothesis Hc : assoc_N t tbl = Some c.

  Lemma dispatch_own rest o :
    run (dispatch_ext tbl) (mkS o (u16 t ++ rest)) =
      run (let* ext_data := length_data be_u16 in On ext_data (ext_content c (slen ext_data mod 65536))) (mkS (o + 2) rest).
  Proof.
    unfold dispatch_ext. rewrite run_bind, run_u16_enc by exact Ht. apply run_bind_cong. intros r d _. now rewrite Hg, Hc.
  Qed.

  (* framing [u16 len; take len] and a content parser that may use len: the dispatcher passes the length of
     the slice taken, which is len *)
  Theorem with_len_agrees f rest o : (forall n, ext_content c n = f n) ->
    run (tagged t (with_len f)) (mkS o (u16 t ++ rest)) = run (dispatch_ext tbl) (mkS o (u16 t ++ rest)).
  Proof.
    intros Hf. rewrite run_tagged_own, dispatch_own. unfold with_len, map_parser, length_data. rewrite run_bind_assoc.
    apply run_bind_cong. intros r n Hn%run_beu_lt. apply run_bind_cong. intros r' d ->%run_take_len.
    now rewrite N.mod_small, Hf by exact Hn.
  Qed.
  (* framing length_data(be_u16) and a content parser that ignores the length *)
  Theorem length_data_agrees p rest o : (forall n, ext_content c n = p) ->
    run (tagged t (map_parser (length_data be_u16) p)) (mkS o (u16 t ++ rest)) = run (dispatch_ext tbl) (mkS o (u16 t ++ rest)).
  Proof.
    intros Hp. rewrite run_tagged_own, dispatch_own. apply run_bind_cong. intros r d _. now rewrite Hp.
  Qed.
End Agree.

Section Instances.
  Hypothesis Hgen : generic_ok = true.
  Hypothesis Hgr : grease_ok = true.
  Hypothesis Htags : tags_ok = true.

  Definition own_types : list (N * P TlsExtension) :=
    [(0, parse_tls_extension_sni); (1, parse_tls_extension_max_fragment_length); (5, parse_tls_extension_status_request);
     (10, parse_tls_extension_elliptic_curves); (11, parse_tls_extension_ec_point_formats);
     (13, parse_tls_extension_signature_algorithms); (15, parse_tls_extension_heartbeat);
     (22, parse_tls_extension_encrypt_then_mac); (23, parse_tls_extension_extended_master_secret);
     (35, parse_tls_extension_session_ticket); (51, parse_tls_extension_key_share); (41, parse_tls_extension_pre_shared_key);
     (42, parse_tls_extension_early_data); (43, parse_tls_extension_supported_versions); (44, parse_tls_extension_cookie);
     (45, parse_tls_extension_psk_key_exchange_modes)].

  (* What makes a pair (type, parser) single-purpose: the parser is [tagged] with that type and frames the
     content parser that the IANA assignment ([generic_expected]) gives the type, in one of the two ways the
     source writes the framing.  Heartbeat (15) additionally insists on length 1: only the tag is claimed. *)
  Definition arm_of (t : N) (c : ext_content_id) : Prop :=
    t < 65536 /\ is_grease_simple t = false /\ assoc_N t generic_expected = Some c.
  Inductive single_purpose : N * P TlsExtension -> Prop :=
  | SP_with_len tag t c f : (tag =? t) = true -> arm_of t c -> (forall n, ext_content c n = f n) ->
      single_purpose (t, tagged tag (with_len f))
  | SP_length_data tag t c p : (tag =? t) = true -> arm_of t c -> (forall n, ext_content c n = p) ->
      single_purpose (t, tagged tag (map_parser (length_data be_u16) p))
  | SP_heartbeat tag p : (tag =? 15) = true -> single_purpose (15, tagged tag p).

  Lemma single_purpose_rejects e : single_purpose e -> forall t' rest o, t' < 65536 -> t' <> fst e ->
    run (snd e) (mkS o (u16 t' ++ rest)) = Err (mkS o (u16 t' ++ rest)) KTag.
  Proof.
    intros [tag t c f ->%N.eqb_eq [Ht _] _|tag t c p ->%N.eqb_eq [Ht _] _|tag p ->%N.eqb_eq] t' rest o Ht' Hne;
      apply tagged_rejects_other_type; auto; reflexivity.
  Qed.
  (* an arm in terms of the model's GREASE test and table *)
  Lemma arm_model t c : arm_of t c -> t < 65536 /\ grease_test t = false /\ assoc_N t generic_table = Some c.
  Proof. intros (Ht & Hg & Hc). rewrite (grease_exact Hgr t Ht), (generic_lookup Hgen). auto. Qed.
  Lemma single_purpose_agrees e : single_purpose e -> fst e <> 15 -> forall rest o,
    run (snd e) (mkS o (u16 (fst e) ++ rest)) = run parse_tls_extension (mkS o (u16 (fst e) ++ rest)).
  Proof.
    intros [tag t c f ->%N.eqb_eq (Ht & Hg & Hc)%arm_model Hf|tag t c p ->%N.eqb_eq (Ht & Hg & Hc)%arm_model Hp|tag p _] H15 rest o.
    - exact (with_len_agrees generic_table t c Ht Hg Hc f rest o Hf).
    - exact (length_data_agrees generic_table t c Ht Hg Hc p rest o Hp).
    - now elim H15.
  Qed.

  (* the conjuncts of [tags_ok] are the first premises *)
  Lemma own_types_single_purpose : Forall single_purpose own_types.
  Proof.
    pose proof Htags as H. unfold tags_ok in H. repeat apply andb_prop in H as [H ?].
    repeat (constructor;
      [first [eapply SP_with_len | eapply SP_length_data | eapply SP_heartbeat];
       first [eassumption | repeat split; reflexivity | intros; reflexivity]|]).
    constructor.
  Qed.

  (* each of the 16 accepts exactly its own IANA type *)
  Theorem single_purpose_reject_other_types :
    Forall (fun e => forall t' rest o, t' < 65536 -> t' <> fst e ->
              run (snd e) (mkS o (u16 t' ++ rest)) = Err (mkS o (u16 t' ++ rest)) KTag) own_types.
  (* only Htags is used; the closed statement keeps the three obligations it has always had (Properties/C05.v passes them) *)
  Proof using Hgen Hgr Htags. exact (Forall_impl _ single_purpose_rejects own_types_single_purpose). Qed.

  (* ... and, after it, is the generic parser (heartbeat, which also insists on length 1, excepted) *)
  Theorem single_purpose_agree_with_generic :
    Forall (fun e => fst e <> 15 -> forall rest o,
              run (snd e) (mkS o (u16 (fst e) ++ rest)) = run parse_tls_extension (mkS o (u16 (fst e) ++ rest))) own_types.
  Proof. exact (Forall_impl _ single_purpose_agrees own_types_single_purpose). Qed.
End Instances.
