(* C06: the self-delimiting parsers are append-stable (the decided outcome, the value and every
   slice in it are unchanged; only the remainder grows). *)
From TlsModel Require Import Extensions Kx Dtls NomGeneric SafeProofs.

Lemma Stable_panic A : Stable (@PanicP A).
Proof. intros i x. reflexivity. Qed.
#[export] Hint Resolve Stable_panic : stable.

#[export] Hint Extern 5 (Stable _) => progress nom_unfold : stable.
Ltac solve_stable := solve [auto 40 with stable nocore].
Ltac stable_def := lazymatch goal with |- Stable ?p => let h := head p in unfold h end; solve_stable.

Lemma Stable_record_header : Stable parse_tls_record_header.
Proof. stable_def. Qed.
#[export] Hint Resolve Stable_record_header : stable.
Theorem Stable_plaintext : Stable parse_tls_plaintext.
Proof. stable_def. Qed.
Theorem Stable_encrypted : Stable parse_tls_encrypted.
Proof. stable_def. Qed.
Theorem Stable_raw_record : Stable parse_tls_raw_record.
Proof. stable_def. Qed.

Theorem Stable_handshake : Stable parse_tls_message_handshake.
Proof. stable_def. Qed.

Theorem Stable_dispatch_ext tbl : Stable (dispatch_ext tbl).
Proof. stable_def. Qed.

Theorem Stable_dh : Stable parse_dh_params.
Proof. stable_def. Qed.
Theorem Stable_ec_point : Stable parse_ec_point.
Proof. stable_def. Qed.
(* parse_ec_curve and parse_ec_parameters_content have no Stable lemma of their own: they are unfolded where they are met *)
Theorem Stable_explicit_prime : Stable parse_explicit_prime.
Proof. unfold parse_explicit_prime, parse_ec_curve, parse_ec_point. solve_stable. Qed.
#[export] Hint Resolve Stable_ec_point Stable_explicit_prime : stable.
Theorem Stable_ec_parameters : Stable parse_ec_parameters.
Proof. unfold parse_ec_parameters, parse_ec_parameters_content. solve_stable. Qed.
#[export] Hint Resolve Stable_ec_parameters : stable.
Theorem Stable_ecdh : Stable parse_ecdh_params.
Proof. stable_def. Qed.
Theorem Stable_signed : Stable parse_digitally_signed.
Proof. stable_def. Qed.
Theorem Stable_signed_old : Stable parse_digitally_signed_old.
Proof. stable_def. Qed.
#[export] Hint Resolve Stable_signed Stable_signed_old : stable.
Theorem Stable_content_and_signature T (f : P T) ext : Stable f -> Stable (parse_content_and_signature f ext).
Proof. intros Hf. unfold parse_content_and_signature. solve_stable. Qed.

Theorem Stable_sct : Stable parse_ct_signed_certificate_timestamp.
Proof. stable_def. Qed.
Theorem Stable_sct_list : Stable parse_ct_signed_certificate_timestamp_list.
Proof. stable_def. Qed.

Theorem Stable_dtls_record_header : Stable parse_dtls_record_header.
Proof. stable_def. Qed.
#[export] Hint Resolve Stable_dtls_record_header : stable.
Theorem Stable_dtls_record : Stable parse_dtls_plaintext_record.
Proof. stable_def. Qed.
Theorem Stable_dtls_handshake : Stable parse_dtls_message_handshake.
Proof. stable_def. Qed.

(* the 16 single-purpose extension parsers: tag, then their own framing *)
Lemma Stable_tagged t A (p : P A) : Stable p -> Stable (tagged t p).
Proof. intros Hp. unfold tagged. solve_stable. Qed.
Lemma Stable_with_len f : Stable (with_len f).
Proof. stable_def. Qed.
#[export] Hint Resolve Stable_tagged Stable_with_len : stable.

Theorem stable_ok A (p : P A) : Stable p -> forall i x r v, run p i = Ok r v -> run p (sapp i x) = Ok (sapp r x) v.
Proof. intros Hp i x r v E. specialize (Hp i x). rewrite E in Hp. exact Hp. Qed.
Theorem stable_err A (p : P A) : Stable p -> forall i x s k, run p i = Err s k ->
  exists s', run p (sapp i x) = Err s' k /\ (s' = s \/ s' = sapp s x).
Proof. intros Hp i x s k E. specialize (Hp i x). rewrite E in Hp. exact Hp. Qed.
(* the two together, as the C06 theorems state them for each parser *)
Theorem stable_decided A (p : P A) : Stable p -> forall i x,
  (forall r v, run p i = Ok r v -> run p (sapp i x) = Ok (sapp r x) v) /\
  (forall s k, run p i = Err s k -> exists s', run p (sapp i x) = Err s' k).
Proof.
  intros Hp i x. split; [intros r v; apply (stable_ok _ _ Hp)|].
  intros s k E. destruct (stable_err _ _ Hp i x s k E) as [s' [E' _]]. eauto.
Qed.
(* the value depends only on the bytes that decided it: two continuations of the same accepted input *)
Theorem stable_same_value A (p : P A) : Stable p -> forall i x y r v, run p i = Ok r v ->
  run p (sapp i x) = Ok (sapp r x) v /\ run p (sapp i y) = Ok (sapp r y) v.
Proof. intros Hp i x y r v E. split; apply stable_ok; assumption. Qed.

Definition tagged_parsers : list (P TlsExtension) :=
  [parse_tls_extension_sni; parse_tls_extension_max_fragment_length; parse_tls_extension_status_request;
   parse_tls_extension_elliptic_curves; parse_tls_extension_ec_point_formats; parse_tls_extension_signature_algorithms;
   parse_tls_extension_heartbeat; parse_tls_extension_encrypt_then_mac; parse_tls_extension_extended_master_secret;
   parse_tls_extension_session_ticket; parse_tls_extension_key_share; parse_tls_extension_pre_shared_key;
   parse_tls_extension_early_data; parse_tls_extension_supported_versions; parse_tls_extension_cookie;
   parse_tls_extension_psk_key_exchange_modes].
Theorem Stable_tagged_parsers : Forall Stable tagged_parsers.
Proof. unfold tagged_parsers. repeat constructor; apply Stable_tagged; solve_stable. Qed.
