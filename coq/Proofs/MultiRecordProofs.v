(* No parser term produces nom's Failure; parsers that make progress; and C16: many1(complete(p)) equals applying p
   repeatedly. *)
From TlsModel Require Import Dtls NomGeneric RunLemmas.
From Coq Require Import Lia.

Definition no_fail {A} (r : res A) : Prop := match r with Fail _ _ => False | _ => True end.
Lemma no_fail_handle {A B} (x : res A) (k : slice -> A -> res B) h :
  no_fail x -> (forall r a, no_fail (k r a)) -> (forall s e, no_fail (h s e)) -> no_fail (handle x k h).
Proof. intros Hx Hk Hh. destruct x; cbn in *; auto. Qed.
Lemma no_fail_loop_end {A} k (f : slice -> res A) l j : no_fail (f j) -> no_fail (loop_end k f l j).
Proof. intros H. apply no_fail_handle; [exact H | exact (fun _ _ => I)..]. Qed.

Theorem run_no_fail : forall A (p : P A) i, no_fail (run p i).
Proof.
  induction p as [A a|A B p IHp k IHk|A k|n|k|t|A p IHp|A p IHp|A s p IHp|A p IHp|A p IHp
                 |A p IHp q IHq|A p IHp f|A p IHp| |n|A]; intros i; try exact I.
  - apply no_fail_handle; [apply IHp | intros r a; apply IHk | exact (fun _ _ => I)].
  - rewrite run_take. destruct (_ <? _); exact I.
  - rewrite run_beu. destruct (_ <? _); exact I.
  - rewrite run_tag. destruct (tag_cmp t (bytes i)) as [[|]|]; exact I.
  - rewrite run_cmpl. specialize (IHp i). destruct (run p i); auto.
  - apply no_fail_handle; [apply IHp | exact (fun _ _ => I)..].
  - apply no_fail_handle; [apply IHp | exact (fun _ _ => I)..].
  - destruct (run_many_spec A p i) as (l & j & _ & _ & -> & _). apply no_fail_loop_end, IHp.
  - destruct (run_many_spec A p i) as (l & j & _ & _ & _ & ->).
    destruct (run p i); [| exact I | ..]; apply no_fail_loop_end, IHp.
  - apply no_fail_handle; [apply IHp | exact (fun _ _ => I) | intros _ _; apply IHq].
  - apply no_fail_handle; [apply IHp | | exact (fun _ _ => I)]. intros r a. destruct (f a); exact I.
  - apply no_fail_handle; [apply IHp | exact (fun _ _ => I)..].
  - rewrite run_idx. destruct (_ <? _); exact I.
Qed.

Definition progress {A} (p : P A) : Prop := forall i r v, run p i = Ok r v -> slen r < slen i.
Lemma progress_beu k : (0 < k)%nat -> progress (BeU k).
Proof.
  intros Hk i r v (H & -> & _)%run_beu_ok. rewrite slen_sdrop. lia.
Qed.
Lemma progress_bind_l A B (p : P A) (k : A -> P B) : progress p -> progress (Bind p k).
Proof.
  intros Hp i r v. rewrite run_bind. destruct (run p i) as [r1 a| | | | |] eqn:E; try discriminate.
  intros H. apply Hp in E. apply run_suffix, suffix_len in H. lia.
Qed.
Lemma progress_plaintext : progress parse_tls_plaintext.
Proof.
  unfold parse_tls_plaintext, parse_tls_record_header, be_u8.
  apply progress_bind_l, progress_bind_l, progress_beu. lia.
Qed.
Lemma progress_dtls_plaintext : progress parse_dtls_plaintext_record.
Proof.
  unfold parse_dtls_plaintext_record, parse_dtls_record_header, be_u8.
  apply progress_bind_l, progress_bind_l, progress_beu. lia.
Qed.

(* specification: apply the single-record parser repeatedly from the start of the buffer for as long
   as it succeeds (fuel = the bytes themselves) *)
Section Iter.
  Context {A : Type} (f : slice -> res A).
  Fixpoint iterate (fuel : list byte) (i : slice) : list A * slice :=
    match f i with
    | Ok r a =>
        if slen r =? slen i then ([], i) else
        match fuel with
        | [] => ([], i)
        | _ :: fuel' => let (l, rem) := iterate fuel' r in (a :: l, rem)
        end
    | _ => ([], i)
    end.
End Iter.

Lemma iterate_steps {A} (f : slice -> res A) : (forall i r a, f i = Ok r a -> slen r <= slen i) ->
  forall fuel i, slen i <= lenN fuel ->
  let (l, j) := iterate f fuel i in steps f i l j /\ halts f j.
Proof.
  intros Hlen. induction fuel as [|c fuel IH]; intros i Hf; cbn [iterate lenN] in *.
  all: destruct (halts_or_steps f i) as [H | (r & a & E & Hne)].
  1,3: (* no step from i: iterate stops there, whatever the fuel *)
    destruct (f i) as [r a| | | | |] eqn:E; [rewrite (H _ _ E), N.eqb_refl|..]; (split; [constructor | exact H]).
  all: rewrite E; destruct (N.eqb_spec (slen r) (slen i)) as [|_]; [contradiction|]; pose proof (Hlen _ _ _ E).
  - (* no fuel: the input is empty, and a step would shorten it *) lia.
  - specialize (IH r). destruct (iterate f fuel r) as [l j]. destruct IH; [lia|]. split; [eapply steps_cons|]; eauto.
Qed.

Section ManyIsIterate.
  Context {A : Type} (p : P A).
  Hypothesis Hprog : progress p.
  Hypothesis Hsafe : Safe p.

  Lemma steps_cmpl i l j : steps (run p) i l j -> steps (run (Cmpl p)) i l j.
  Proof. induction 1 as [|i r a l j E]; econstructor; eauto. rewrite run_cmpl, E. reflexivity. Qed.

  (* where p does not step, complete(p) answers with an Error *)
  Lemma halts_err j : halts (run p) j -> exists s e, run (Cmpl p) j = Err s e.
  Proof.
    intros Hj. pose proof (Hsafe j). pose proof (run_no_fail _ p j). rewrite run_cmpl.
    destruct (run p j) as [r a| | | | |] eqn:E; try contradiction; eauto.
    apply Hprog in E as Hlt. rewrite (Hj _ _ E) in Hlt. lia.
  Qed.

  Theorem many1_is_iterate i :
    run (Many1 (Cmpl p)) i =
      match iterate (fun j => run p j) (bytes i) i with
      | ([], _) => match run p i with
                   | Incomplete _ => Err i KComplete
                   | Err s k => Err s k
                   | _ => Err i KComplete  (* unreachable: the first record succeeded with progress *)
                   end
      | (recs, rem) => Ok rem recs
      end.
  Proof.
    pose proof (iterate_steps (run p) (run_len A p) (bytes i) i (N.le_refl _)) as H.
    destruct (iterate _ (bytes i) i) as [l j]. destruct H as [S (s & e & Hj)%halts_err].
    destruct S as [i|i r a l j E Hne S].
    - destruct (run_many_spec _ (Cmpl p) i) as (l & j & _ & _ & _ & ->). rewrite Hj.
      rewrite run_cmpl in Hj. destruct (run p i); congruence.
    - apply run_many1_ok. split; [|discriminate]. apply run_many0_ok. split; [|eauto].
      apply steps_cmpl. eapply steps_cons; eauto.
  Qed.

  (* failure iff the very first record does not parse *)
  Corollary many1_fails_iff i :
    (exists r v, run (Many1 (Cmpl p)) i = Ok r v) <-> (exists r v, run p i = Ok r v).
  Proof.
    split.
    - intros (r & l & [[S _]%run_many0_ok Hl]%run_many1_ok). destruct S as [|? ? ? ? ? E%run_cmpl_inv]; [congruence | eauto].
    - intros (r & v & E). destruct (run_many_spec _ (Cmpl p) i) as (l & j & _ & Hj & _ & ->). rewrite run_cmpl, E.
      destruct (halts_err j) as (s & e & Ej); [|unfold loop_end; rewrite Ej; cbn [handle]; eauto].
      intros r' a' E'. apply (Hj r' a'). rewrite run_cmpl, E'. reflexivity.
  Qed.
End ManyIsIterate.
