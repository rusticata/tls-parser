(* Lists indexed by N (lenN, takeN, dropN, split_at) through their bridge to firstn / skipn, and big-endian
   integers: be_val (be_enc k v) = v below 256^k. *)
From TlsModel Require Import Bytes.
From Coq Require Import Lia ZArith ZifyBool ZifyN.
(* `::=` is global: every file that loads this one has `lia` treat `/` and `mod` this way.  It also decides which
   section hypotheses `lia` pulls into a proof term, hence the closed statements of lemmas proved in sections. *)
Ltac Zify.zify_post_hook ::= Z.div_mod_to_equations.
Arguments N.modulo : simpl never.

Section L.
Context {A : Type}.
Implicit Types l : list A.

Lemma lenN_app l1 l2 : lenN (l1 ++ l2) = lenN l1 + lenN l2.
Proof. induction l1 as [|x t IH]; cbn [lenN app]; lia. Qed.

Lemma lenN_nil_inv l : lenN l = 0 -> l = [].
Proof. destruct l; cbn [lenN]; [reflexivity | lia]. Qed.

Lemma lenN_length l : lenN l = N.of_nat (length l).
Proof. induction l as [|x t IH]; cbn [lenN length]; lia. Qed.

Lemma takeN_0 l : takeN l 0 = [].
Proof. destruct l; reflexivity. Qed.
Lemma dropN_0 l : dropN l 0 = l.
Proof. destruct l; reflexivity. Qed.

(* takeN and dropN are firstn and skipn of the standard library with the count in N; with [lenN_length]
   the facts below are the library's. *)
Lemma takeN_firstn l n : takeN l n = firstn (N.to_nat n) l.
Proof.
  revert n; induction l as [|x t IH]; intros n; cbn [takeN]; [now rewrite firstn_nil|].
  destruct (N.eqb_spec n 0) as [->|Hn]; [reflexivity|].
  rewrite IH. replace (N.to_nat n) with (S (N.to_nat (N.pred n))) by lia. reflexivity.
Qed.
Lemma dropN_skipn l n : dropN l n = skipn (N.to_nat n) l.
Proof.
  revert n; induction l as [|x t IH]; intros n; cbn [dropN]; [now rewrite skipn_nil|].
  destruct (N.eqb_spec n 0) as [->|Hn]; [reflexivity|].
  rewrite IH. replace (N.to_nat n) with (S (N.to_nat (N.pred n))) by lia. reflexivity.
Qed.

Lemma takeN_dropN l n : takeN l n ++ dropN l n = l.
Proof. rewrite takeN_firstn, dropN_skipn. apply firstn_skipn. Qed.

Lemma lenN_takeN_min l n : lenN (takeN l n) = N.min n (lenN l).
Proof. rewrite !lenN_length, takeN_firstn, firstn_length. lia. Qed.
Lemma lenN_takeN l n : n <= lenN l -> lenN (takeN l n) = n.
Proof. rewrite lenN_takeN_min. lia. Qed.
Lemma lenN_takeN_le l n : lenN (takeN l n) <= lenN l.
Proof. rewrite lenN_takeN_min. lia. Qed.

Lemma lenN_dropN l n : lenN (dropN l n) = lenN l - n.
Proof. rewrite !lenN_length, dropN_skipn, skipn_length. lia. Qed.

Lemma takeN_all l n : lenN l <= n -> takeN l n = l.
Proof. rewrite lenN_length, takeN_firstn. intros H. apply firstn_all2. lia. Qed.
Lemma dropN_all l n : lenN l <= n -> dropN l n = [].
Proof. rewrite lenN_length, dropN_skipn. intros H. apply skipn_all2. lia. Qed.

Lemma takeN_app_le l1 l2 n : n <= lenN l1 -> takeN (l1 ++ l2) n = takeN l1 n.
Proof.
  rewrite lenN_length, !takeN_firstn, firstn_app. intros H.
  replace (N.to_nat n - length l1)%nat with 0%nat by lia. apply app_nil_r.
Qed.
Lemma dropN_app_le l1 l2 n : n <= lenN l1 -> dropN (l1 ++ l2) n = dropN l1 n ++ l2.
Proof.
  rewrite lenN_length, !dropN_skipn, skipn_app. intros H.
  replace (N.to_nat n - length l1)%nat with 0%nat by lia. reflexivity.
Qed.

Lemma takeN_app_exact l1 l2 : takeN (l1 ++ l2) (lenN l1) = l1.
Proof. rewrite takeN_app_le, takeN_all; [reflexivity | lia..]. Qed.
Lemma dropN_app_exact l1 l2 : dropN (l1 ++ l2) (lenN l1) = l2.
Proof. rewrite dropN_app_le, dropN_all; [reflexivity | lia..]. Qed.

Lemma dropN_dropN l n m : dropN (dropN l n) m = dropN l (n + m).
Proof.
  revert n m; induction l as [|x t IH]; intros n m; cbn [dropN]; [reflexivity|].
  destruct (N.eqb_spec n 0) as [->|Hn].
  - rewrite N.add_0_l. reflexivity.
  - destruct (N.eqb_spec (n + m) 0); [lia|]. rewrite IH. f_equal; lia.
Qed.

Lemma lenN_app_ge l1 l2 : (lenN (l1 ++ l2) <? lenN l1) = false.
Proof. rewrite lenN_app. lia. Qed.

(* in the form of the test the source makes: too short, or split *)
Lemma split_at_spec l n :
  split_at l n = if lenN l <? n then inr (n - lenN l) else inl (takeN l n, dropN l n).
Proof.
  revert n; induction l as [|x t IH]; intros n; cbn [split_at takeN dropN lenN];
    destruct (N.eqb_spec n 0) as [->|Hn].
  - reflexivity.
  - destruct (N.ltb_spec 0 n); [f_equal; lia | lia].
  - destruct (N.ltb_spec (N.succ (lenN t)) 0); [lia | reflexivity].
  - rewrite IH. replace (N.succ (lenN t) <? n) with (lenN t <? N.pred n) by lia.
    destruct (_ <? _); [f_equal; lia | reflexivity].
Qed.

Lemma split_at_app l x n p r : split_at l n = inl (p, r) -> split_at (l ++ x) n = inl (p, r ++ x).
Proof.
  rewrite !split_at_spec, lenN_app. destruct (N.ltb_spec (lenN l) n); [discriminate|]. intros [= <- <-].
  destruct (N.ltb_spec (lenN l + lenN x) n); [lia|]. rewrite takeN_app_le, dropN_app_le by lia. reflexivity.
Qed.

Lemma has_len_spec l n : has_len l n = (n <=? lenN l).
Proof.
  revert n; induction l as [|x t IH]; intros n; cbn [has_len lenN];
    destruct (N.eqb_spec n 0) as [->|Hn]; [| | |rewrite IH]; lia.
Qed.
End L.

Lemma b2n_lt b : b2n b < 256.
Proof. unfold b2n. pose proof (Byte.to_N_bounded b). lia. Qed.

Lemma b2n_n2b n : b2n (n2b n) = n mod 256.
Proof.
  unfold b2n, n2b.
  destruct (Byte.of_N (n mod 256)) as [b|] eqn:E.
  - apply Byte.to_of_N in E. exact E.
  - apply Byte.of_N_None_iff in E. lia.
Qed.

Lemma n2b_b2n b : n2b (b2n b) = b.
Proof.
  unfold n2b, b2n. rewrite N.mod_small by (pose proof (Byte.to_N_bounded b); lia).
  now rewrite Byte.of_to_N.
Qed.

Lemma lenN_be_enc k v : lenN (be_enc k v) = N.of_nat k.
Proof.
  revert v; induction k as [|k IH]; intros v; cbn [be_enc lenN]; [reflexivity|].
  rewrite lenN_app, IH. cbn [lenN]. lia.
Qed.

Lemma be_fold_app acc l1 l2 : be_fold acc (l1 ++ l2) = be_fold (be_fold acc l1) l2.
Proof. revert acc; induction l1 as [|b t IH]; intros acc; [reflexivity | apply IH]. Qed.

Lemma be_fold_enc k : forall acc v, be_fold acc (be_enc k v) = acc * 256 ^ N.of_nat k + v mod 256 ^ N.of_nat k.
Proof.
  induction k as [|k IH]; intros acc v.
  - cbn [be_enc be_fold]. change (N.of_nat 0) with 0. rewrite N.pow_0_r, N.mod_1_r. lia.
  - cbn [be_enc]. rewrite be_fold_app, IH. cbn [be_fold]. rewrite b2n_n2b.
    rewrite Nat2N.inj_succ, N.pow_succ_r'.
    set (q := 256 ^ N.of_nat k). assert (q <> 0) by (apply N.pow_nonzero; lia).
    rewrite (N.mod_mul_r v 256 q) by lia. nia.
Qed.

Lemma be_val_enc k v : v < 256 ^ N.of_nat k -> be_val (be_enc k v) = v.
Proof. intros H. unfold be_val. rewrite be_fold_enc, N.mod_small by exact H. lia. Qed.
Lemma be_enc_inj k a b : a < 256 ^ N.of_nat k -> b < 256 ^ N.of_nat k -> be_enc k a = be_enc k b -> a = b.
Proof. intros Ha Hb H. apply (f_equal be_val) in H. now rewrite !be_val_enc in H. Qed.

(* the truncating casts of the serializer: the encoding takes the value mod 256^k anyway *)
Lemma be_enc_mod_pow k v : be_enc k (v mod 256 ^ N.of_nat k) = be_enc k v.
Proof.
  revert v; induction k as [|k IH]; intro v; [reflexivity|].
  cbn [be_enc]. rewrite Nat2N.inj_succ, N.pow_succ_r'.
  set (q := 256 ^ N.of_nat k) in *. assert (q <> 0) by (apply N.pow_nonzero; lia).
  (* v mod (256 * q) is the low byte of v plus 256 * ((v / 256) mod q): the last byte is that of v, the others encode
     (v / 256) mod q *)
  rewrite (N.mod_mul_r v 256 q) by lia. set (x := (v / 256) mod q).
  replace ((v mod 256 + 256 * x) / 256) with x by lia.
  unfold n2b. replace ((v mod 256 + 256 * x) mod 256) with (v mod 256) by lia.
  subst x. now rewrite IH.
Qed.

Lemma be_fold_bound l : forall acc, be_fold acc l < (acc + 1) * 256 ^ lenN l.
Proof.
  induction l as [|b t IH]; intros acc; cbn [be_fold lenN].
  - rewrite N.pow_0_r. lia.
  - specialize (IH (acc * 256 + b2n b)). rewrite N.pow_succ_r'. pose proof (b2n_lt b).
    set (q := 256 ^ lenN t) in *. nia.
Qed.

Lemma be_val_bound l : be_val l < 256 ^ lenN l.
Proof. unfold be_val. pose proof (be_fold_bound l 0). lia. Qed.

Lemma slen_sapp s x : slen (sapp s x) = slen s + lenN x.
Proof. unfold slen, sapp. apply lenN_app. Qed.
