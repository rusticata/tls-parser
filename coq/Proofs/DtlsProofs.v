(* C10: DTLS records and handshake fragments decode per RFC 6347. *)
From TlsModel Require Import Dtls DtlsEnc RecordSpec BytesLemmas RunLemmas RtTactics Decodes TableLemmas RecordProofs
  HandshakeProofs.
From TlsModel Require Import Dispatch Consts.
From Coq Require Import Lia.

(* the 64-bit word: epoch (high 16 bits) and sequence number (low 48 bits) *)
Lemma run_epoch_seq e s o rest : e < 65536 -> s < 2 ^ 48 ->
  run be_u64 (mkS o (u16 e ++ u48 s ++ rest)) = Ok (mkS (o + 8) rest) (e * 2 ^ 48 + s).
Proof.
  intros He Hs. unfold be_u64, u16, u48. rewrite app_assoc, run_beu_app by (rewrite lenN_app, !lenN_be_enc; reflexivity).
  f_equal. unfold be_val. rewrite be_fold_app, !be_fold_enc.
  change (N.of_nat 2) with 2. change (N.of_nat 6) with 6. change (256 ^ 6) with (2 ^ 48). change (256 ^ 2) with 65536.
  rewrite !N.mod_small by lia. lia.
Qed.
Lemma split_word e s : e < 65536 -> s < 2 ^ 48 ->
  N.shiftr (e * 2 ^ 48 + s) 48 mod 65536 = e /\ N.land (e * 2 ^ 48 + s) 281474976710655 = s.
Proof.
  intros He Hs. rewrite N.shiftr_div_pow2. change 281474976710655 with (N.ones 48). rewrite N.land_ones.
  split.
  - rewrite N.div_add_l by lia. rewrite (N.div_small s) by lia. rewrite N.add_0_r. apply N.mod_small. lia.
  - rewrite N.add_comm, N.mod_add by lia. apply N.mod_small. lia.
Qed.

Definition wf_dhdr (h : DTLSRecordHeader) : Prop :=
  d_type h < 256 /\ d_version h < 65536 /\ d_epoch h < 65536 /\ d_seq h < 2 ^ 48 /\ d_len h < 65536.

Definition lift_dplain (hdr : DTLSRecordHeader) (rest : slice) (r : res (list DTLSMessage)) : res DTLSPlaintext :=
  match r with
  | Ok _ msgs => Ok rest (mkDPlain hdr msgs)
  | Err s k => Err s k | Fail s k => Fail s k
  | Incomplete n => Incomplete n | Panic => Panic | OutOfFuel => OutOfFuel
  end.

(* what follows the header in parse_dtls_plaintext_record, on any input: the cap test, then exactly len bytes for the
   content parser *)
Lemma run_capped_content A B len (p : P A) (f : A -> B) r :
  run (if MAX_RECORD_LEN <? len then ErrK KTooLarge else let* m := map_parser (Take len) p in Ret (f m)) r =
    if RECORD_CAP <? len then Err r KTooLarge
    else if slen r <? len then Incomplete (Size (len - slen r))
    else match run p (stake r len) with
         | Ok _ m => Ok (sdrop r len) (f m)
         | Err s k => Err s k | Fail s k => Fail s k
         | Incomplete n => Incomplete n | Panic => Panic | OutOfFuel => OutOfFuel
         end.
Proof.
  transitivity (run (if MAX_RECORD_LEN <? len then ErrK KTooLarge else let* d := Take len in let* m := On d p in Ret (f m)) r).
  - destruct (MAX_RECORD_LEN <? len); [reflexivity | apply run_bind_assoc].
  - rewrite run_capped_take. destruct (RECORD_CAP <? len); [reflexivity|]. destruct (slen r <? len); [reflexivity|].
    apply run_on_ret.
Qed.

(* a header cut short is Incomplete (13 bytes: u8, u16, u64, u16) *)
Lemma dtls_header_short i : slen i < 13 -> exists n, run parse_dtls_record_header i = Incomplete n.
Proof.
  intros H. unfold parse_dtls_record_header, be_u8, be_u16, be_u64. rewrite !run_bind_beu, !slen_sdrop.
  change (N.of_nat 1) with 1. change (N.of_nat 2) with 2. change (N.of_nat 8) with 8.
  destruct (N.ltb_spec (slen i) 1); [eauto|]. destruct (N.ltb_spec (slen i - 1) 2); [eauto|].
  destruct (N.ltb_spec (slen i - 1 - 2) 8); [eauto|]. destruct (N.ltb_spec (slen i - 1 - 2 - 8) 2); [eauto | lia].
Qed.

Scheme Equality for dtls_hs_body_id.
Scheme Equality for dtls_rec_body_id.
Definition dtls_hs_expected : list (N * dtls_hs_body_id) :=
  [(1, DHB_client_hello); (3, DHB_hello_verify_request); (2, DHB_server_hello); (14, DHB_serverdone);
   (16, DHB_clientkeyexchange); (11, DHB_certificate)].
Definition dtls_rec_expected : list (N * dtls_rec_body_id) :=
  [(20, DRB_many1_ccs); (21, DRB_many1_alert); (22, DRB_many1_handshake)].
Definition dtls_tables_std : bool :=
  same_assoc dtls_hs_body_id_beq dtls_hs_table dtls_hs_expected &&
  same_assoc dtls_rec_body_id_beq dtls_rec_table dtls_rec_expected.
Lemma dtls_tables_are : dtls_tables_std = true ->
  (forall t, assoc_N t dtls_hs_table = assoc_N t dtls_hs_expected) /\
  (forall t, assoc_N t dtls_rec_table = assoc_N t dtls_rec_expected).
Proof.
  unfold dtls_tables_std. intros [H1 H2]%andb_prop.
  split; eapply same_assoc_eq; eauto using internal_dtls_hs_body_id_dec_bl, internal_dtls_rec_body_id_dec_bl.
Qed.

Definition lift_dbody (rest : slice) (ty len mseq foff flen : N) (r : res DTLSBody) : res DTLSMessage :=
  match r with
  | Ok _ b => Ok rest (DMHandshake (mkDHS ty len mseq foff flen b))
  | Err s k => Err s k | Fail s k => Fail s k
  | Incomplete n => Incomplete n | Panic => Panic | OutOfFuel => OutOfFuel
  end.

Lemma run_fragment o b : run parse_dtls_fragment (mkS o b) = Ok (mkS (o + lenN b) []) (DFragment (mkS o b)).
Proof. exact (run_take_whole _ DFragment o b). Qed.

Definition wf_dch (c : DTLSClientHelloC) : Prop :=
  dch_version c < 65536 /\ slen (dch_random c) = 32 /\ wf_sid (dch_sid c) /\ slen (dch_cookie c) < 256 /\
  Forall (fun v => v < 65536) (dch_ciphers c) /\ 2 * lenN (dch_ciphers c) < 65536 /\
  Forall (fun v => v < 256) (dch_comp c) /\ lenN (dch_comp c) < 256 /\ wf_optext (dch_ext c).

Lemma dtls_client_hello_rt c o : wf_dch c ->
  decodes parse_dtls_client_hello o (enc_dtls_client_hello c) [] (fun b' => strip_dbody b' = strip_dbody (DClientHello c)).
Proof.
  intros (Hv & Hr & Hs & Hck & Hc & Hcl & Hco & Hcol & He).
  unfold parse_dtls_client_hello, enc_dtls_client_hello, vec16. unfold vec8 at 2. rewrite <- !app_assoc.
  do 2 dec_field.
  apply dec_sid; [exact Hs|]. intros s' o' Hss. dec_field.
  apply dec_bind, dec_beu; [rewrite lenN_cat_u16; lia|]. apply dec_bind, dec_cipher_suites; [exact Hc|].
  apply dec_bind, dec_beu; [rewrite lenN_cat_u8; lia|]. apply dec_bind, dec_compressions; [exact Hco|].
  apply dec_last, dec_opt_ext; [exact He|]. intros e' Hee. apply dec_ret. cbn. now rewrite Hss, Hee.
Qed.

(* which bodies are "supported" and well-formed *)
Definition wf_dbody (b : DTLSBody) : Prop :=
  match b with
  | DClientHello c => wf_dch c
  | DHelloVerifyRequest v c => v < 65536 /\ slen c < 256
  | DServerHello c => sh_version c < 65536 /\ slen (sh_random c) = 32 /\ wf_sid (sh_sid c) /\ sh_cipher c < 65536 /\
                      sh_comp c < 256 /\ wf_optext (sh_ext c)
  | DCertificate l => wf_certs l
  | DServerDone _ => True
  | DClientKeyExchange c => match c with CkeUnknown _ => True | _ => False end
  | _ => False
  end.
Definition dbody_type (b : DTLSBody) : N :=
  match b with
  | DClientHello _ => 1 | DHelloVerifyRequest _ _ => 3 | DServerHello _ => 2 | DCertificate _ => 11
  | DServerDone _ => 14 | DClientKeyExchange _ => 16 | _ => 255
  end.

Lemma dtls_body_rt (Ht : dtls_tables_std = true) b o : wf_dbody b ->
  exists id, assoc_N (dbody_type b) dtls_hs_table = Some id /\
    accepts (dtls_hs_body id (lenN (enc_dtls_body b))) (mkS o (enc_dtls_body b)) (fun b' => strip_dbody b' = strip_dbody b).
Proof.
  intros Hw. rewrite (proj1 (dtls_tables_are Ht)).
  destruct b; cbn [wf_dbody] in Hw; try contradiction;
    (eexists; split; [reflexivity|]); apply dec_accepts.
  - now apply dtls_client_hello_rt.
  - dec_field. now apply dec_last, dec_vec; [apply Hw | apply dec_ret].
  - destruct Hw as (Hv & Hr & Hs & Hc & Hco & He). apply dec_pmap.
    eapply dec_weaken; [now apply server_hello_v12_rt|]. intros c' Hc'. cbn [strip_dbody]. now rewrite Hc'.
  - apply dec_pmap. eapply dec_weaken; [apply certificate_rt, Hw|]. intros l' Hl. cbn [strip_dbody]. now rewrite Hl.
  - now apply dec_pmap, dec_take.
  - destruct c; try contradiction. now apply dec_pmap, dec_pmap, dec_take.
Qed.

Definition is_fragment (m : DTLSMessage) : bool :=
  match m with DMHandshake h => match dhs_body h with DFragment _ => true | _ => false end | _ => false end.
