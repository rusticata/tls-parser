(* Generic round-trip lemmas for many0/many1 over complete(p): a concatenation of encodings
   followed by a tail on which p stops decodes to exactly the encoded values, in order. *)
From TlsModel Require Import Nom BytesLemmas NomGeneric RunLemmas.
From Coq Require Import Lia.

Section RT.
  Context {A B : Type} (p : P A) (enc : B -> list byte) (wf : B -> Prop) (eqv : A -> B -> Prop).
  Definition roundtrips : Prop :=
    forall v rest o, wf v ->
      exists v', run p (mkS o (enc v ++ rest)) = Ok (mkS (o + lenN (enc v)) rest) v' /\ eqv v' v.
  Definition nonempty_enc : Prop := forall v, wf v -> 1 <= lenN (enc v).
  Definition stops (i : slice) : Prop :=
    match run p i with Err _ _ | Incomplete _ => True | _ => False end.

  Hypothesis Hrt : roundtrips.
  Hypothesis Hne : nonempty_enc.

  Lemma cmpl_stops i : stops i -> exists s k, run (Cmpl p) i = Err s k.
  Proof. unfold stops; cbn [run]. destruct (run p i); try tauto; eauto. Qed.
  Lemma many1_first_stops i : stops i -> exists s k, run (Many1 (Cmpl p)) i = Err s k.
  Proof.
    intros (s & k & E)%cmpl_stops. destruct (run_many_spec A (Cmpl p) i) as (l & j & _ & _ & _ & ->). rewrite E. eauto.
  Qed.

  Definition encs (vs : list B) : list byte := concat (map enc vs).

  Lemma steps_encs vs : forall o tail, (forall v, In v vs -> wf v) ->
    exists vs', steps (run (Cmpl p)) (mkS o (encs vs ++ tail)) vs' (mkS (o + lenN (encs vs)) tail) /\ Forall2 eqv vs' vs.
  Proof.
    induction vs as [|v vs IH]; intros o tail Hwf.
    - exists [].  rewrite N.add_0_r. split; constructor.
    - assert (Hv : wf v) by (apply Hwf; left; reflexivity).
      destruct (Hrt v (encs vs ++ tail) o Hv) as (v' & E & Hev).
      destruct (IH (o + lenN (enc v)) tail) as (vs' & S & HF); [intros; apply Hwf; right; assumption|].
      exists (v' :: vs'). change (encs (v :: vs)) with (enc v ++ encs vs). rewrite <- app_assoc, lenN_app, N.add_assoc.
      split; [|constructor; assumption]. eapply steps_cons; [apply run_cmpl_ok, E | | exact S].
      pose proof (Hne v Hv). unfold slen; cbn [bytes]. rewrite (lenN_app (enc v)). lia.
  Qed.

  Theorem many0_cmpl_rt vs o tail :
    (forall v, In v vs -> wf v) ->
    stops (mkS (o + lenN (encs vs)) tail) ->
    exists vs', run (Many0 (Cmpl p)) (mkS o (encs vs ++ tail)) =
                  Ok (mkS (o + lenN (encs vs)) tail) vs' /\ Forall2 eqv vs' vs.
  Proof.
    intros Hwf Hs. destruct (steps_encs vs o tail Hwf) as (vs' & S & HF). exists vs'. split; [|exact HF].
    apply run_many0_ok. split; [exact S | apply cmpl_stops, Hs].
  Qed.

  Theorem many1_cmpl_rt v vs o tail :
    (forall x, In x (v :: vs) -> wf x) ->
    stops (mkS (o + lenN (encs (v :: vs))) tail) ->
    exists vs', run (Many1 (Cmpl p)) (mkS o (encs (v :: vs) ++ tail)) =
                  Ok (mkS (o + lenN (encs (v :: vs))) tail) vs' /\ Forall2 eqv vs' (v :: vs).
  Proof.
    intros Hwf Hs. destruct (many0_cmpl_rt (v :: vs) o tail Hwf Hs) as (vs' & E & HF). exists vs'. split; [|exact HF].
    apply run_many1_ok. split; [exact E | inversion HF; discriminate].
  Qed.
End RT.

Lemma stops_bind_l A B (p : P A) (k : A -> P B) i : stops p i -> stops (Bind p k) i.
Proof. unfold stops. rewrite run_bind. destruct (run p i); tauto. Qed.
Lemma stops_vrfy A (p : P A) f i : stops p i -> stops (Vrfy p f) i.
Proof. unfold stops. rewrite run_vrfy. destruct (run p i); tauto. Qed.
Lemma stops_beu_nil k o : (0 < k)%nat -> stops (BeU k) (mkS o []).
Proof.
  intros Hk. unfold stops. rewrite run_beu. unfold slen; cbn [bytes lenN].
  destruct (N.ltb_spec 0 (N.of_nat k)); [exact I | lia].
Qed.
Lemma stops_bind_beu_nil A k (f : N -> P A) o : (0 < k)%nat -> stops (Bind (BeU k) f) (mkS o []).
Proof. intros Hk. apply stops_bind_l, stops_beu_nil, Hk. Qed.
