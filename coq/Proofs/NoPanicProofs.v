(* C01 (model side): the defragmenter never panics under any call sequence once the debug assertion is
   gone, and the element count of every repeated parser is bounded by the bytes it consumed. *)
From TlsModel Require Import Defrag NomGeneric SafeProofs DefragProofs.
From Coq Require Import Lia.

Definition dsafe (o : option dout) : Prop := match o with Some (_, r) => safe r | None => True end.

Lemma map_complete_safe {A} (r : res A) : safe r -> safe (map_complete r).
Proof. unfold map_complete. destruct (is_complete_err r); [intros _; exact I | auto]. Qed.

Lemma nocopy_safe s hdr data : safe (snd (snd (nocopy s hdr data))).
Proof.
  unfold nocopy. destruct (defrag_in_progress s); [exact I|].
  apply map_complete_safe, Safe_with_header.
Qed.

Lemma parse_record_safe s hdr data : safe (snd (snd (parse_record false s hdr data))).
Proof.
  destruct (d_cur s) as [t|] eqn:Hc.
  - rewrite (parse_record_busy _ _ _ _ _ Hc).  destruct (negb _); [exact I|]. destruct (_ <=? _); [exact I|].
    apply map_complete_safe, Safe_with_header.
  - rewrite (parse_record_idle _ _ _ _ Hc). destruct (_ || _); [apply nocopy_safe|].
    cbv zeta. destruct (needs_more _); [exact I | apply Safe_with_header].
Qed.

Lemma step_safe s o : dsafe (snd (step false s o)).
Proof.
  assert (some : forall x : dout, safe (snd x) -> dsafe (Some x)) by now intros [].
  destruct o; [rewrite step_parse | rewrite step_nocopy | exact I]; apply some; [apply parse_record_safe | apply nocopy_safe].
Qed.

Theorem defrag_never_panics : forall ops s, Forall (fun e => dsafe (fst e)) (run_ops false s ops).
Proof.
  intros ops s. apply (run_ops_inv false (fun _ => True) (fun _ => True)); [| exact I | now apply Forall_forall].
  intros s' o _ _. split; [exact I | apply step_safe].
Qed.

Theorem many0_count A (p : P A) i r l : run (Many0 p) i = Ok r l -> lenN l + slen r <= slen i.
Proof. intros [S _]%run_many0_ok. apply (steps_count _ (run_len A p)), S. Qed.
Theorem many1_count A (p : P A) i r l : run (Many1 p) i = Ok r l -> lenN l + slen r <= slen i + 1.
Proof. intros [H _]%run_many1_ok. apply many0_count in H. lia. Qed.
