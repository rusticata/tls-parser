(* The two obligations over the regenerated extension tables (gen/Dispatch.v) that C05 and C11 share, discharged
   once.  Like the obligations in Properties/, these lemmas break when the tables change, and nothing else in
   Proofs/ depends on them.
   GREASE: the types are not swept.  The source's test demands equal bytes and so do the sixteen RFC 8701 values,
   which leaves the 256 types hi = lo to be compared by evaluation. *)
From TlsModel Require Import Dispatch Extensions ExtEnc ExtProofs.
From Coq Require Import Lia.

Lemma generic_ok_true : generic_ok = true.
Proof. vm_compute. reflexivity. Qed.

Lemma grease_ok_true : grease_ok = true.
Proof.
  apply forallb_forall. intros t _. apply Bool.eqb_true_iff. unfold grease_test.
  change grease_same_bytes with true. cbv iota. change 255 with (N.ones 8). rewrite N.shiftr_div_pow2, N.land_ones.
  change (2 ^ 8) with 256. destruct (N.eqb_spec (t / 256) (t mod 256)) as [E|E].
  - assert (S : forallb (fun l => Bool.eqb (N.land (257 * l) grease_mask =? grease_val) (is_grease_simple (257 * l))) (Nrange 256) = true)
      by (vm_compute; reflexivity).
    rewrite forallb_forall in S. specialize (S (t mod 256) (Nrange_complete 256 (t mod 256) ltac:(lia))). apply Bool.eqb_prop in S.
    replace (257 * (t mod 256)) with t in S by lia. now rewrite Bool.andb_true_r.
  - rewrite Bool.andb_false_r. symmetry. apply Bool.not_true_is_false. intros [x [Hin <-%N.eqb_eq]]%existsb_exists. apply E.
    cbn [In] in Hin. repeat destruct Hin as [<-|Hin]; try reflexivity. contradiction.
Qed.
