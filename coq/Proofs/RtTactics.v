(* [run] on an input that starts with an encoded field, as rewrite rules with the bound and the resulting offset
   written out: for the theorems that state the answer of [run] itself (characterisations on every input, rejections,
   round trips with the offsets kept).  Round trips modulo offsets go through the judgement of Proofs/Decodes.v.
   Also the lengths of the encodings of Spec/Wire.v, which both kinds of proof need. *)
From TlsModel Require Import Nom Wire BytesLemmas RunLemmas.
From Coq Require Import Lia.

(* the widths in use, with the bound and the offset written out *)
Lemma run_u8_enc v o rest : v < 256 -> run be_u8 (mkS o (u8 v ++ rest)) = Ok (mkS (o + 1) rest) v.
Proof. exact (run_beu_enc 1 v o rest). Qed.
Lemma run_u16_enc v o rest : v < 65536 -> run be_u16 (mkS o (u16 v ++ rest)) = Ok (mkS (o + 2) rest) v.
Proof. exact (run_beu_enc 2 v o rest). Qed.
Lemma run_u24_enc v o rest : v < 16777216 -> run be_u24 (mkS o (u24 v ++ rest)) = Ok (mkS (o + 3) rest) v.
Proof. exact (run_beu_enc 3 v o rest). Qed.

Lemma run_vec k b o rest : lenN b < 256 ^ N.of_nat k ->
  run (length_data (BeU k)) (mkS o ((be_enc k (lenN b) ++ b) ++ rest)) =
    Ok (mkS (o + N.of_nat k + lenN b) rest) (mkS (o + N.of_nat k) b).
Proof.
  intros H. unfold length_data. rewrite <- app_assoc, run_bind, run_beu_enc by exact H.
  now apply run_take_app.
Qed.
Lemma run_vec8 b o rest : lenN b < 256 ->
  run (length_data be_u8) (mkS o (vec8 b ++ rest)) = Ok (mkS (o + 1 + lenN b) rest) (mkS (o + 1) b).
Proof. exact (run_vec 1 b o rest). Qed.
Lemma run_vec16 b o rest : lenN b < 65536 ->
  run (length_data be_u16) (mkS o (vec16 b ++ rest)) = Ok (mkS (o + 2 + lenN b) rest) (mkS (o + 2) b).
Proof. exact (run_vec 2 b o rest). Qed.

Lemma lenN_u8 v : lenN (u8 v) = 1. Proof. exact (lenN_be_enc 1 v). Qed.
Lemma lenN_u16 v : lenN (u16 v) = 2. Proof. exact (lenN_be_enc 2 v). Qed.
Lemma lenN_u24 v : lenN (u24 v) = 3. Proof. exact (lenN_be_enc 3 v). Qed.
Lemma lenN_u32 v : lenN (u32 v) = 4. Proof. exact (lenN_be_enc 4 v). Qed.
Lemma lenN_vec8 b : lenN (vec8 b) = 1 + lenN b.
Proof. unfold vec8. now rewrite lenN_app, lenN_u8. Qed.
Lemma lenN_vec16 b : lenN (vec16 b) = 2 + lenN b.
Proof. unfold vec16. now rewrite lenN_app, lenN_u16. Qed.
Lemma lenN_vec24 b : lenN (vec24 b) = 3 + lenN b.
Proof. unfold vec24. now rewrite lenN_app, lenN_u24. Qed.

Lemma lenN_cat_be k l : lenN (cat (be_enc k) l) = N.of_nat k * lenN l.
Proof.
  induction l as [|v l IH]; [cbn [cat map concat lenN]; lia|].
  change (cat (be_enc k) (v :: l)) with (be_enc k v ++ cat (be_enc k) l). rewrite lenN_app, lenN_be_enc, IH. cbn [lenN]. lia.
Qed.
Lemma lenN_cat_u16 l : lenN (cat u16 l) = 2 * lenN l.
Proof. exact (lenN_cat_be 2 l). Qed.
Lemma lenN_cat_u8 l : lenN (cat u8 l) = lenN l.
Proof. rewrite <- (N.mul_1_l (lenN l)). exact (lenN_cat_be 1 l). Qed.

(* remainder offsets: o + (sum of field lengths) *)
Ltac solve_off :=
  repeat rewrite ?lenN_app, ?lenN_vec8, ?lenN_vec16, ?lenN_vec24, ?lenN_u8, ?lenN_u16, ?lenN_u24, ?lenN_u32; lia.
(* one parsing step over an encoded prefix *)
Ltac rt_step :=
  rewrite run_bind;
  first [ rewrite run_u8_enc by (unfold slen in *; lia)
        | rewrite run_u16_enc by (unfold slen in *; lia)
        | rewrite run_u24_enc by (unfold slen in *; lia) ].
