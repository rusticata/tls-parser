(* C11, C13, C14: the round trips of key-exchange parameters, signatures and SCT entries that several statements rest on,
   as rules of the [decodes] judgement. *)
From TlsModel Require Import Kx KxEnc Decodes.

Lemma explicit_prime_roundtrip c rest o : wf_ep c ->
  decodes parse_explicit_prime o (enc_explicit_prime c) rest (fun v' => strip_ep v' = strip_ep c).
Proof.
  intros (H1 & H2 & H3 & H4 & H5 & H6). dec_field. apply dec_bind_assoc. dec_field. apply dec_bind_assoc. dec_field.
  apply dec_ret_bind. do 3 dec_field. now apply dec_ret.
Qed.

Theorem ecparams_roundtrip p rest o : wf_ecparams p ->
  decodes parse_ec_parameters o (enc_ecparams p) rest (fun v' => strip_ecp v' = strip_ecp p).
Proof.
  unfold wf_ecparams, enc_ecparams, strip_ecp. destruct p as [ct [c|g]]; intros [-> H].
  - dec_field. apply dec_last, dec_pmap. eapply dec_weaken; [apply explicit_prime_roundtrip, H|].
    intros c' Hc. apply dec_ret. cbn. now rewrite Hc.
  - dec_field. now apply dec_last, dec_pmap, dec_beu; [|apply dec_ret].
Qed.

Theorem signed_roundtrip d rest o : wf_signed d ->
  decodes (if match ds_alg d with Some _ => true | None => false end
           then parse_digitally_signed else parse_digitally_signed_old) o (enc_signed d) rest (fun v' => strip_ds v' = strip_ds d).
Proof.
  destruct d as [[[h s]|] data]; unfold wf_signed, enc_signed; cbn [ds_alg ds_data]; intros [Hd Ha].
  - do 2 dec_field. now apply dec_last, dec_vec; [|apply dec_ret].
  - now apply dec_pmap, dec_vec.
Qed.

Lemma sct_body_roundtrip s rest o : wf_sct s ->
  decodes parse_ct_signed_certificate_timestamp_content o (enc_sct_body s) rest (fun v' => strip_sct v' = strip_sct s).
Proof.
  intros (Hv & Hid & Hts & Hext & Hsig & Halg & Hlen). pose proof (fun o => signed_roundtrip (sct_sig s) rest o Hsig) as HS.
  destruct (ds_alg (sct_sig s)); [|congruence].
  dec_field. apply dec_bind_assoc, dec_bind, dec_take; [exact Hid|].
  unfold slen; cbn [bytes]. unfold slen in Hid. rewrite Hid, N.eqb_refl. apply dec_ret_bind.
  do 2 dec_field.
  apply dec_last. eapply dec_weaken; [apply HS|]. intros d' Hd. apply dec_ret. unfold strip_sct; cbn. now rewrite Hd.
Qed.

Theorem sct_roundtrip s rest o : wf_sct s ->
  decodes parse_ct_signed_certificate_timestamp o (enc_sct s) rest (fun v' => strip_sct v' = strip_sct s).
Proof.
  intros Hw. apply dec_map_parser, dec_vec; [apply Hw|]. now apply dec_accepts, sct_body_roundtrip.
Qed.

Definition sct_eqv (a b : SCT) : Prop := strip_sct a = strip_sct b.

