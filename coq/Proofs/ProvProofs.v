(* C06 provenance for every parser of the crate: all slices in a returned value are sub-slices of the
   input (same bytes, same address) lying in its consumed part. *)
From TlsModel Require Import Extensions Kx Dtls SafeProofs NomGeneric ProvGeneric Slices.

Create HintDb prov discriminated.
(* every [HasSlices] instance by name: a value type added to Proofs/Slices.v has to be added here, or [prov_ret]
   leaves its slices folded and the walk stops without a message *)
Ltac prov_norm :=
  cbv [slices HS_N HS_bool HS_unit HS_byte HS_slice HS_option HS_prod HS_list HS_hdr HS_dhdr HS_CH HS_SH HS_SH13 HS_HRR HS_CR
       HS_CKE HS_HS HS_Msg HS_Plain HS_Enc HS_Raw HS_Ext HS_DH HS_EP HS_ECPC HS_ECP HS_ECDH HS_DS HS_SCT HS_DCH HS_DBody
       HS_DHS HS_DMsg HS_DPlain fst snd] in *;
  cbn [flat_map app In] in *.
Ltac in_ctx := prov_norm; repeat first [rewrite in_app_iff in * | progress cbn [In] in *]; intuition.
Ltac prov_ret := apply ProvC_ret; let s := fresh "s" in let Hs := fresh "Hs" in intros s Hs; in_ctx.
(* the rules of Proofs/ProvGeneric.v as hints: `auto with prov` is the walk over a parser term (as for `safe`) *)
#[export] Hint Constants Opaque : prov.
#[export] Hint Resolve ProvC_errk ProvC_panic ProvC_take ProvC_opt ProvC_cmpl ProvC_many0 ProvC_many1 ProvC_alt ProvC_vrfy : prov.
#[export] Hint Extern 0 (ProvC _ _) => solve [apply ProvC_noslices; typeclasses eauto] : prov.
#[export] Hint Extern 1 (ProvC _ (Bind GetI _)) => apply ProvC_bind_any : prov.
#[export] Hint Extern 1 (ProvC _ (Bind (Peek _) _)) => apply ProvC_bind_any : prov.
#[export] Hint Extern 1 (ProvC _ (Bind (Idx _) _)) => apply ProvC_bind_any : prov.
#[export] Hint Extern 2 (ProvC ?ctx (Bind ?p ?k)) => apply (ProvC_bind _ ctx p k) : prov.
#[export] Hint Extern 1 (ProvC _ (Ret _)) => prov_ret : prov.
#[export] Hint Extern 1 (ProvC _ (On _ _)) => apply ProvC_on; [solve [in_ctx]|] : prov.
#[export] Hint Extern 1 (ProvC _ (match ?x with _ => _ end)) => destruct x : prov.
#[export] Hint Extern 5 (ProvC _ _) => progress nom_unfold : prov.
Ltac solve_prov := solve [auto 40 with prov nocore].
Ltac prov_def := lazymatch goal with |- ProvC _ ?p => let h := head p in unfold h end; solve_prov.

(* src/tls_handshake.rs *)
Lemma Prov_client_hello ctx : ProvC ctx parse_tls_handshake_client_hello.
Proof. prov_def. Qed.
#[export] Hint Resolve Prov_client_hello : prov.
Lemma Prov_msg_client_hello ctx : ProvC ctx parse_tls_handshake_msg_client_hello.
Proof. prov_def. Qed.
Lemma Prov_certs ctx : ProvC ctx parse_certs.
Proof. prov_def. Qed.
#[export] Hint Resolve Prov_msg_client_hello Prov_certs : prov.
Lemma Prov_sh12 b ctx : ProvC ctx (parse_tls_server_hello_tlsv12 b).
Proof. prov_def. Qed.
#[export] Hint Resolve Prov_sh12 : prov.
Lemma Prov_msg_sh12 b ctx : ProvC ctx (parse_tls_handshake_msg_server_hello_tlsv12 b).
Proof. prov_def. Qed.
Lemma Prov_msg_sh13 ctx : ProvC ctx parse_tls_handshake_msg_server_hello_tlsv13draft18.
Proof. prov_def. Qed.
#[export] Hint Resolve Prov_msg_sh12 Prov_msg_sh13 : prov.
Lemma Prov_server_hello ctx : ProvC ctx parse_tls_handshake_server_hello.
Proof. prov_def. Qed.
Lemma Prov_msg_server_hello ctx : ProvC ctx parse_tls_handshake_msg_server_hello.
Proof. prov_def. Qed.
#[export] Hint Resolve Prov_server_hello Prov_msg_server_hello : prov.
Lemma Prov_nst len ctx : ProvC ctx (parse_tls_handshake_msg_newsessionticket len).
Proof. prov_def. Qed.
Lemma Prov_hrr ctx : ProvC ctx parse_tls_handshake_msg_hello_retry_request.
Proof. prov_def. Qed.
Lemma Prov_certificate ctx : ProvC ctx parse_tls_certificate.
Proof. prov_def. Qed.
#[export] Hint Resolve Prov_nst Prov_hrr Prov_certificate : prov.
Lemma Prov_msg_certificate ctx : ProvC ctx parse_tls_handshake_msg_certificate.
Proof. prov_def. Qed.
Lemma Prov_ske len ctx : ProvC ctx (parse_tls_handshake_msg_serverkeyexchange len).
Proof. prov_def. Qed.
Lemma Prov_sdone len ctx : ProvC ctx (parse_tls_handshake_msg_serverdone len).
Proof. prov_def. Qed.
Lemma Prov_cverify len ctx : ProvC ctx (parse_tls_handshake_msg_certificateverify len).
Proof. prov_def. Qed.
Lemma Prov_cke0 len ctx : ProvC ctx (parse_tls_clientkeyexchange len).
Proof. prov_def. Qed.
#[export] Hint Resolve Prov_msg_certificate Prov_ske Prov_sdone Prov_cverify Prov_cke0 : prov.
Lemma Prov_cke len ctx : ProvC ctx (parse_tls_handshake_msg_clientkeyexchange len).
Proof. prov_def. Qed.
Lemma Prov_ca_list ctx : ProvC ctx ca_list.
Proof. prov_def. Qed.
#[export] Hint Resolve Prov_cke Prov_ca_list : prov.
Lemma Prov_cr_nosig ctx : ProvC ctx parse_certrequest_nosigalg.
Proof. prov_def. Qed.
Lemma Prov_cr_full ctx : ProvC ctx parse_certrequest_full.
Proof. prov_def. Qed.
#[export] Hint Resolve Prov_cr_nosig Prov_cr_full : prov.
Lemma Prov_cr ctx : ProvC ctx parse_tls_handshake_certificaterequest.
Proof. prov_def. Qed.
#[export] Hint Resolve Prov_cr : prov.
Lemma Prov_msg_cr ctx : ProvC ctx parse_tls_handshake_msg_certificaterequest.
Proof. prov_def. Qed.
Lemma Prov_finished len ctx : ProvC ctx (parse_tls_handshake_msg_finished len).
Proof. prov_def. Qed.
Lemma Prov_cstatus ctx : ProvC ctx parse_tls_handshake_certificatestatus.
Proof. prov_def. Qed.
#[export] Hint Resolve Prov_msg_cr Prov_finished Prov_cstatus : prov.
Lemma Prov_msg_cstatus ctx : ProvC ctx parse_tls_handshake_msg_certificatestatus.
Proof. prov_def. Qed.
Lemma Prov_np ctx : ProvC ctx parse_tls_handshake_next_protocol.
Proof. prov_def. Qed.
#[export] Hint Resolve Prov_msg_cstatus Prov_np : prov.
Lemma Prov_msg_np ctx : ProvC ctx parse_tls_handshake_msg_next_protocol.
Proof. prov_def. Qed.
Lemma Prov_ku ctx : ProvC ctx parse_tls_handshake_msg_key_update.
Proof. prov_def. Qed.
Lemma Prov_hreq ctx : ProvC ctx parse_tls_handshake_msg_hello_request.
Proof. prov_def. Qed.
#[export] Hint Resolve Prov_msg_np Prov_ku Prov_hreq : prov.
Lemma Prov_hs_body b hl ctx : ProvC ctx (hs_body b hl).
Proof. destruct b; cbn [hs_body]; solve_prov. Qed.
#[export] Hint Resolve Prov_hs_body : prov.
Lemma Prov_message_handshake ctx : ProvC ctx parse_tls_message_handshake.
Proof. prov_def. Qed.
#[export] Hint Resolve Prov_message_handshake : prov.

(* src/tls_message.rs, src/tls_record.rs *)
Lemma Prov_ccs ctx : ProvC ctx parse_tls_message_changecipherspec.
Proof. prov_def. Qed.
Lemma Prov_alert ctx : ProvC ctx parse_tls_message_alert.
Proof. prov_def. Qed.
Lemma Prov_appdata ctx : ProvC ctx parse_tls_message_applicationdata.
Proof. prov_def. Qed.
Lemma Prov_heartbeat l ctx : ProvC ctx (parse_tls_message_heartbeat l).
Proof. prov_def. Qed.
Lemma Prov_header ctx : ProvC ctx parse_tls_record_header.
Proof. prov_def. Qed.
#[export] Hint Resolve Prov_ccs Prov_alert Prov_appdata Prov_heartbeat Prov_header : prov.
Lemma Prov_rec_body b hdr ctx : ProvC ctx (rec_body b hdr).
Proof. destruct b; cbn [rec_body]; solve_prov. Qed.
#[export] Hint Resolve Prov_rec_body : prov.
Lemma Prov_with_header hdr ctx : ProvC ctx (parse_tls_record_with_header hdr).
Proof. prov_def. Qed.
#[export] Hint Resolve Prov_with_header : prov.
Lemma Prov_plaintext ctx : ProvC ctx parse_tls_plaintext.
Proof. prov_def. Qed.
Lemma Prov_encrypted ctx : ProvC ctx parse_tls_encrypted.
Proof. prov_def. Qed.
Lemma Prov_raw ctx : ProvC ctx parse_tls_raw_record.
Proof. prov_def. Qed.
#[export] Hint Resolve Prov_plaintext Prov_encrypted Prov_raw : prov.
Lemma Prov_many ctx : ProvC ctx tls_parser_many.
Proof. prov_def. Qed.
#[export] Hint Resolve Prov_many : prov.

(* src/tls_extensions.rs *)
Lemma Prov_sni_hostname ctx : ProvC ctx parse_tls_extension_sni_hostname. Proof. prov_def. Qed.
#[export] Hint Resolve Prov_sni_hostname : prov.
Lemma Prov_sni_content ctx : ProvC ctx parse_tls_extension_sni_content. Proof. prov_def. Qed.
Lemma Prov_mfl_content ctx : ProvC ctx parse_tls_extension_max_fragment_length_content. Proof. prov_def. Qed.
Lemma Prov_status_content l ctx : ProvC ctx (parse_tls_extension_status_request_content l). Proof. prov_def. Qed.
Lemma Prov_named_groups ctx : ProvC ctx parse_named_groups. Proof. apply ProvC_noslices; typeclasses eauto. Qed.
Lemma Prov_tls_versions ctx : ProvC ctx parse_tls_versions. Proof. apply ProvC_noslices; typeclasses eauto. Qed.
Lemma Prov_ec_content ctx : ProvC ctx parse_tls_extension_elliptic_curves_content. Proof. prov_def. Qed.
Lemma Prov_ecpf_content ctx : ProvC ctx parse_tls_extension_ec_point_formats_content. Proof. prov_def. Qed.
Lemma Prov_sigalg_content ctx : ProvC ctx parse_tls_extension_signature_algorithms_content. Proof. prov_def. Qed.
Lemma Prov_hb_content ctx : ProvC ctx parse_tls_extension_heartbeat_content. Proof. prov_def. Qed.
Lemma Prov_protocol_name ctx : ProvC ctx parse_protocol_name. Proof. prov_def. Qed.
#[export] Hint Resolve Prov_protocol_name : prov.
Lemma Prov_alpn_content ctx : ProvC ctx parse_tls_extension_alpn_content. Proof. prov_def. Qed.
Lemma Prov_padding_content l ctx : ProvC ctx (parse_tls_extension_padding_content l). Proof. prov_def. Qed.
Lemma Prov_sct_content ctx : ProvC ctx parse_tls_extension_signed_certificate_timestamp_content. Proof. prov_def. Qed.
Lemma Prov_rsl ctx : ProvC ctx parse_tls_extension_record_size_limit. Proof. prov_def. Qed.
Lemma Prov_ticket_content l ctx : ProvC ctx (parse_tls_extension_session_ticket_content l). Proof. prov_def. Qed.
Lemma Prov_kso_content l ctx : ProvC ctx (parse_tls_extension_key_share_old_content l). Proof. prov_def. Qed.
Lemma Prov_ks_content l ctx : ProvC ctx (parse_tls_extension_key_share_content l). Proof. prov_def. Qed.
Lemma Prov_psk_content l ctx : ProvC ctx (parse_tls_extension_pre_shared_key_content l). Proof. prov_def. Qed.
Lemma Prov_ed_content l ctx : ProvC ctx (parse_tls_extension_early_data_content l). Proof. prov_def. Qed.
Lemma Prov_sv_content l ctx : ProvC ctx (parse_tls_extension_supported_versions_content l). Proof. prov_def. Qed.
Lemma Prov_cookie_content l ctx : ProvC ctx (parse_tls_extension_cookie_content l). Proof. prov_def. Qed.
Lemma Prov_pskm_content ctx : ProvC ctx parse_tls_extension_psk_key_exchange_modes_content. Proof. prov_def. Qed.
Lemma Prov_reneg_content ctx : ProvC ctx parse_tls_extension_renegotiation_info_content. Proof. prov_def. Qed.
Lemma Prov_esni ctx : ProvC ctx parse_tls_extension_encrypted_server_name. Proof. prov_def. Qed.
Lemma Prov_oid_filter ctx : ProvC ctx parse_tls_oid_filter. Proof. prov_def. Qed.
#[export] Hint Resolve Prov_oid_filter : prov.
Lemma Prov_oid_filters ctx : ProvC ctx parse_tls_extension_oid_filters. Proof. prov_def. Qed.
Lemma Prov_ext_unknown ctx : ProvC ctx parse_tls_extension_unknown. Proof. prov_def. Qed.
#[export] Hint Resolve Prov_sni_content Prov_mfl_content Prov_status_content Prov_ec_content Prov_ecpf_content
  Prov_sigalg_content Prov_hb_content Prov_alpn_content Prov_padding_content Prov_sct_content Prov_rsl
  Prov_ticket_content Prov_kso_content Prov_ks_content Prov_psk_content Prov_ed_content Prov_sv_content
  Prov_cookie_content Prov_pskm_content Prov_reneg_content Prov_esni Prov_oid_filters Prov_ext_unknown : prov.
Lemma Prov_ext_content c l ctx : ProvC ctx (ext_content c l).
Proof.
  destruct c; cbn [ext_content]; unfold parse_tls_extension_encrypt_then_mac_content,
    parse_tls_extension_extended_master_secret_content, parse_tls_extension_post_handshake_auth_content,
    parse_tls_extension_npn_content; solve_prov.
Qed.
#[export] Hint Resolve Prov_ext_content : prov.
Lemma Prov_dispatch_ext tbl ctx : ProvC ctx (dispatch_ext tbl). Proof. prov_def. Qed.
#[export] Hint Resolve Prov_dispatch_ext : prov.
Lemma Prov_ext ctx : ProvC ctx parse_tls_extension. Proof. prov_def. Qed.
Lemma Prov_ch_ext ctx : ProvC ctx parse_tls_client_hello_extension. Proof. prov_def. Qed.
Lemma Prov_sh_ext ctx : ProvC ctx parse_tls_server_hello_extension. Proof. prov_def. Qed.
#[export] Hint Resolve Prov_ext Prov_ch_ext Prov_sh_ext : prov.
Lemma Prov_exts ctx : ProvC ctx parse_tls_extensions. Proof. prov_def. Qed.
Lemma Prov_ch_exts ctx : ProvC ctx parse_tls_client_hello_extensions. Proof. prov_def. Qed.
Lemma Prov_sh_exts ctx : ProvC ctx parse_tls_server_hello_extensions. Proof. prov_def. Qed.
Lemma Prov_x_sni ctx : ProvC ctx parse_tls_extension_sni. Proof. prov_def. Qed.
Lemma Prov_x_mfl ctx : ProvC ctx parse_tls_extension_max_fragment_length. Proof. prov_def. Qed.
Lemma Prov_x_status ctx : ProvC ctx parse_tls_extension_status_request. Proof. prov_def. Qed.
Lemma Prov_x_ec ctx : ProvC ctx parse_tls_extension_elliptic_curves. Proof. prov_def. Qed.
Lemma Prov_x_ecpf ctx : ProvC ctx parse_tls_extension_ec_point_formats. Proof. prov_def. Qed.
Lemma Prov_x_sigalg ctx : ProvC ctx parse_tls_extension_signature_algorithms. Proof. prov_def. Qed.
Lemma Prov_x_hb ctx : ProvC ctx parse_tls_extension_heartbeat. Proof. prov_def. Qed.
Lemma Prov_x_etm ctx : ProvC ctx parse_tls_extension_encrypt_then_mac.
Proof. unfold parse_tls_extension_encrypt_then_mac, parse_tls_extension_encrypt_then_mac_content. solve_prov. Qed.
Lemma Prov_x_ems ctx : ProvC ctx parse_tls_extension_extended_master_secret.
Proof. unfold parse_tls_extension_extended_master_secret, parse_tls_extension_extended_master_secret_content. solve_prov. Qed.
Lemma Prov_x_ticket ctx : ProvC ctx parse_tls_extension_session_ticket. Proof. prov_def. Qed.
Lemma Prov_x_ks ctx : ProvC ctx parse_tls_extension_key_share. Proof. prov_def. Qed.
Lemma Prov_x_psk ctx : ProvC ctx parse_tls_extension_pre_shared_key. Proof. prov_def. Qed.
Lemma Prov_x_ed ctx : ProvC ctx parse_tls_extension_early_data. Proof. prov_def. Qed.
Lemma Prov_x_sv ctx : ProvC ctx parse_tls_extension_supported_versions. Proof. prov_def. Qed.
Lemma Prov_x_cookie ctx : ProvC ctx parse_tls_extension_cookie. Proof. prov_def. Qed.
Lemma Prov_x_pskm ctx : ProvC ctx parse_tls_extension_psk_key_exchange_modes. Proof. prov_def. Qed.

(* src/tls_dh.rs, tls_ec.rs, tls_sign_hash.rs, certificate_transparency.rs *)
Lemma Prov_dh ctx : ProvC ctx parse_dh_params. Proof. prov_def. Qed.
Lemma Prov_ec_point ctx : ProvC ctx parse_ec_point. Proof. prov_def. Qed.
Lemma Prov_ec_curve ctx : ProvC ctx parse_ec_curve. Proof. prov_def. Qed.
#[export] Hint Resolve Prov_dh Prov_ec_point Prov_ec_curve : prov.
Lemma Prov_explicit_prime ctx : ProvC ctx parse_explicit_prime. Proof. prov_def. Qed.
#[export] Hint Resolve Prov_explicit_prime : prov.
Lemma Prov_ecpc t ctx : ProvC ctx (parse_ec_parameters_content t). Proof. prov_def. Qed.
#[export] Hint Resolve Prov_ecpc : prov.
Lemma Prov_ec_parameters ctx : ProvC ctx parse_ec_parameters. Proof. prov_def. Qed.
#[export] Hint Resolve Prov_ec_parameters : prov.
Lemma Prov_ecdh ctx : ProvC ctx parse_ecdh_params. Proof. prov_def. Qed.
Lemma Prov_ds_old ctx : ProvC ctx parse_digitally_signed_old. Proof. prov_def. Qed.
Lemma Prov_ds ctx : ProvC ctx parse_digitally_signed. Proof. prov_def. Qed.
#[export] Hint Resolve Prov_ecdh Prov_ds_old Prov_ds : prov.
Lemma Prov_content_and_signature T `{HasSlices T} (f : P T) ext : (forall ctx, ProvC ctx f) -> forall ctx, ProvC ctx (parse_content_and_signature f ext).
Proof. intros Hf ctx. unfold parse_content_and_signature. solve_prov. Qed.
Lemma Prov_log_id ctx : ProvC ctx parse_log_id. Proof. prov_def. Qed.
#[export] Hint Resolve Prov_log_id : prov.
Lemma Prov_ct_ext ctx : ProvC ctx parse_ct_extensions. Proof. prov_def. Qed.
#[export] Hint Resolve Prov_ct_ext : prov.
Lemma Prov_sct_c ctx : ProvC ctx parse_ct_signed_certificate_timestamp_content. Proof. prov_def. Qed.
#[export] Hint Resolve Prov_sct_c : prov.
Lemma Prov_sct ctx : ProvC ctx parse_ct_signed_certificate_timestamp. Proof. prov_def. Qed.
#[export] Hint Resolve Prov_sct : prov.
Lemma Prov_sct_list ctx : ProvC ctx parse_ct_signed_certificate_timestamp_list. Proof. prov_def. Qed.

(* src/dtls.rs *)
Lemma Prov_dhdr ctx : ProvC ctx parse_dtls_record_header. Proof. prov_def. Qed.
Lemma Prov_dfrag ctx : ProvC ctx parse_dtls_fragment. Proof. prov_def. Qed.
Lemma Prov_dch ctx : ProvC ctx parse_dtls_client_hello. Proof. prov_def. Qed.
Lemma Prov_dhvr ctx : ProvC ctx parse_dtls_hello_verify_request. Proof. prov_def. Qed.
#[export] Hint Resolve Prov_dhdr Prov_dfrag Prov_dch Prov_dhvr : prov.
Lemma Prov_dtls_hs_body b l ctx : ProvC ctx (dtls_hs_body b l). Proof. destruct b; cbn [dtls_hs_body]; solve_prov. Qed.
#[export] Hint Resolve Prov_dtls_hs_body : prov.
Lemma Prov_dmsg_hs ctx : ProvC ctx parse_dtls_message_handshake. Proof. prov_def. Qed.
Lemma Prov_dccs ctx : ProvC ctx parse_dtls_message_changecipherspec. Proof. prov_def. Qed.
Lemma Prov_dalert ctx : ProvC ctx parse_dtls_message_alert. Proof. prov_def. Qed.
#[export] Hint Resolve Prov_dmsg_hs Prov_dccs Prov_dalert : prov.
Lemma Prov_drec_body b ctx : ProvC ctx (dtls_rec_body b). Proof. destruct b; cbn [dtls_rec_body]; solve_prov. Qed.
#[export] Hint Resolve Prov_drec_body : prov.
Lemma Prov_dwith_header h ctx : ProvC ctx (parse_dtls_record_with_header h). Proof. prov_def. Qed.
#[export] Hint Resolve Prov_dwith_header : prov.
Lemma Prov_dplain ctx : ProvC ctx parse_dtls_plaintext_record. Proof. prov_def. Qed.
#[export] Hint Resolve Prov_dplain : prov.
Lemma Prov_dplains ctx : ProvC ctx parse_dtls_plaintext_records. Proof. prov_def. Qed.

Theorem prov_top A `{HasSlices A} (p : P A) : (forall ctx, ProvC ctx p) -> Prov p.
Proof. intros Hp. apply ProvC_nil, Hp. Qed.
