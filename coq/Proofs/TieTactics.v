(* Lemmas and tactics for gen/SrcTie.v: `src_f args i = run (f args) i`.
   Both sides are programs of the result monad ([bindr], Model/SrcGlue.v) over `run` of parser terms: the source side
   as the translator wrote it, the model side once `run` is pushed through the constructors that only sequence
   (Bind Ret ErrK PanicP On Peek Vrfy GetI Idx).  Each such constructor followed by a continuation K is one equation
   ([hd_*] below); with associativity they bring either side to the form `bindr (run p j) K` with p a parser the
   tie does not look into (Take BeU TagB Many0 .. or a function tied by its own lemma).  Two sides of that form
   are equal if they start with the same parser and the continuations agree on every result ([bindr_cong]): one
   subgoal, no case analysis of the result.  Case analysis is needed only where an `if` / `match` blocks a head;
   the dispatch tables (gen/Dispatch.v) turn into `if` chains by computation. *)
From TlsModel Require Import ModelExtra SrcGlue Dispatch SerExtra SerConsts.
From TlsModel Require Import BytesLemmas RunLemmas NomGeneric.
From Coq Require Import Lia.

Section ResMonad.
  Context {A B : Type}.
  Implicit Types (x : res A) (K : slice -> A -> res B).
  Lemma bindr_ret x : bindr x Ok = x.
  Proof. destruct x; reflexivity. Qed.
  Lemma bindr_assoc {C} x K (g : slice -> B -> res C) : bindr (bindr x K) g = bindr x (fun r a => bindr (K r a) g).
  Proof. destruct x; reflexivity. Qed.
  Lemma bindr_cong x x' K K' : x = x' -> (forall r a, K r a = K' r a) -> bindr x K = bindr x' K'.
  Proof. intros <- H. destruct x; cbn [bindr]; auto. Qed.
End ResMonad.

Section Head.
  Context {A B : Type} (K : slice -> A -> res B).
  Lemma hd_Ret a i : bindr (run (Ret a) i) K = K i a.
  Proof. reflexivity. Qed.
  Lemma hd_ErrK e i : bindr (run (ErrK e) i) K = Err i e.
  Proof. reflexivity. Qed.
  Lemma hd_PanicP i : bindr (run PanicP i) K = Panic.
  Proof. reflexivity. Qed.
  (* [run] on Bind, On and Peek is itself a [bindr], by conversion: these three are associativity *)
  Lemma hd_Bind {C} (p : P C) (f : C -> P A) i :
    bindr (run (Bind p f) i) K = bindr (run p i) (fun r c => bindr (run (f c) r) K).
  Proof. exact (bindr_assoc (run p i) _ K). Qed.
  Lemma hd_On s (p : P A) i : bindr (run (On s p) i) K = bindr (run p s) (fun _ a => K i a).
  Proof. exact (bindr_assoc (run p s) (fun _ a => Ok i a) K). Qed.
  Lemma hd_Peek (p : P A) i : bindr (run (Peek p) i) K = bindr (run p i) (fun _ a => K i a).
  Proof. exact (bindr_assoc (run p i) (fun _ a => Ok i a) K). Qed.
  Lemma hd_Vrfy (p : P A) f i :
    bindr (run (Vrfy p f) i) K = bindr (run p i) (fun r a => if f a then K r a else Err i KVerify).
  Proof. cbn [run]. destruct (run p i); try reflexivity. cbn [bindr]. destruct (f a); reflexivity. Qed.
End Head.
Section HeadSlice.
  Context {B : Type} (K : slice -> slice -> res B).
  Lemma hd_GetI i : bindr (run GetI i) K = K i i.
  Proof. reflexivity. Qed.
  (* `(&i[..n], &i[n..])`: the source text guards the slicing itself (`if slen i <? n then Panic`) *)
  Lemma hd_Idx n i : bindr (run (Idx n) i) K = if slen i <? n then Panic else K (sdrop i n) (stake i n).
  Proof. rewrite run_idx. destruct (slen i <? n); reflexivity. Qed.
End HeadSlice.

(* extensional equality of parser terms, and its congruences *)
Definition peq {A} (p q : P A) : Prop := forall j, run p j = run q j.
Lemma peq_refl {A} (p : P A) : peq p p.
Proof. intro; reflexivity. Qed.

Lemma peq_Many0 {A} (p q : P A) : peq p q -> peq (Many0 p) (Many0 q).
Proof. intros H j. rewrite !run_many0_loop. apply many_loop_ext, H. Qed.
Lemma peq_Many1 {A} (p q : P A) : peq p q -> peq (Many1 p) (Many1 q).
Proof.
  intros H j. rewrite !run_many1_loop, (H j). destruct (run q j); try reflexivity.
  cbn [handle]. rewrite (many_loop_ext _ _ _ H). reflexivity.
Qed.
Lemma peq_Cmpl {A} (p q : P A) : peq p q -> peq (Cmpl p) (Cmpl q).
Proof. intros H j. cbn [run]. rewrite (H j). reflexivity. Qed.
Lemma peq_Opt {A} (p q : P A) : peq p q -> peq (Opt p) (Opt q).
Proof. intros H j. cbn [run]. rewrite (H j). reflexivity. Qed.
Lemma peq_Alt {A} (p p' q q' : P A) : peq p p' -> peq q q' -> peq (Alt p q) (Alt p' q').
Proof. intros H1 H2 j. cbn [run]. rewrite (H1 j), (H2 j). reflexivity. Qed.
Lemma peq_On {A} s (p q : P A) : peq p q -> peq (On s p) (On s q).
Proof. intros H j. cbn [run]. rewrite (H s). reflexivity. Qed.
Lemma peq_Vrfy {A} (p q : P A) f : peq p q -> peq (Vrfy p f) (Vrfy q f).
Proof. intros H j. cbn [run]. rewrite (H j). reflexivity. Qed.
Lemma peq_Bind {A B} (p q : P A) (k l : A -> P B) : peq p q -> (forall a, peq (k a) (l a)) -> peq (Bind p k) (Bind q l).
Proof. intros H1 H2 j. cbn [run]. rewrite (H1 j). destruct (run q j); try reflexivity. apply H2. Qed.
Lemma peq_run {A} (p q : P A) j : peq p q -> run p j = run q j.
Proof. intros H; apply H. Qed.

(* derived combinators, glue and dispatch tables *)
Ltac tie_unfold :=
  cbv beta zeta delta
      [pmap length_data map_parser cond g_id g_pair g_triple g_MAlert g_MApplicationData g_MHeartbeat
       g_HNewSessionTicket g_HCertificateStatus g_HNextProtocol g_DMAlert g_DHelloVerifyRequest g_mkEP
       opt_ext tagged with_len empty_only parse_alert_pair parse_sig_hash_pair ca_list
       parse_dtls_handshake_msg_server_hello_tlsv12 parse_dtls_handshake_msg_serverdone
       parse_dtls_handshake_msg_clientkeyexchange parse_dtls_handshake_msg_certificate
       parse_u16_all pairs16_panics pairs16_val
       assoc_N hs_table sh_versions sh_msg_versions rec_table dtls_rec_table dtls_hs_table generic_table client_table
       server_table dispatch_ext grease_test grease_mask grease_val grease_same_bytes].

(* one equation at the head of the left-hand side *)
Ltac hd lem := eapply eq_trans; [apply lem|]; cbv beta.
Ltac tie_head :=
  lazymatch goal with
  | |- run _ _ = _ => eapply eq_trans; [symmetry; apply bindr_ret|]
  | |- bindr (bindr _ _) _ = _ => hd @bindr_assoc
  | |- bindr (run ?p _) _ = _ =>
      lazymatch p with
      | Bind _ _ => hd @hd_Bind | Ret _ => hd @hd_Ret | ErrK _ => hd @hd_ErrK | PanicP => hd @hd_PanicP
      | On _ _ => hd @hd_On | Peek _ => hd @hd_Peek | Vrfy _ _ => hd @hd_Vrfy | GetI => hd @hd_GetI | Idx _ => hd @hd_Idx
      end
  end.

(* the condition or scrutinee that keeps the head of t from reducing, handed to k; fails if there is none *)
Ltac scrutinee c k :=
  lazymatch c with
  | (if ?c' then _ else _) => scrutinee c' k
  | (match ?s with _ => _ end) => scrutinee s k
  | negb ?c' => scrutinee c' k
  | _ => k c
  end.
Ltac blocker t k :=
  lazymatch t with
  | bindr ?x _ => blocker x k
  | run ?p _ => blocker p k
  | sbind ?x _ => blocker x k
  | (if ?c then _ else _) => scrutinee c k
  | (match ?s with _ => _ end) => scrutinee s k
  end.
(* split, take the branch, apply the selector of the table entry found *)
Ltac tie_split t :=
  blocker t ltac:(fun c => destruct c eqn:?); cbn [bindr fst snd negb rec_body hs_body dtls_hs_body dtls_rec_body ext_content];
  tie_unfold.

(* branches that the source and the model exclude by differently written conditions *)
Ltac tie_absurd := exfalso; rewrite ?has_len_spec in *; unfold slen, stake in *; cbn [bytes] in *; lia.
Ltac tie_close := first [ reflexivity | tie_absurd ].

(* run p j = run q j for parsers the walk does not look into: the same term; or the same repetition / completion /
   option / alternative of parsers that are tied in turn ([peq_*]); or convertible (a tag written as bytes on one
   side, as `u16 t` on the other) *)
Ltac tie_atom tie_rec :=
  lazymatch goal with
  | |- run ?p ?j = run ?q ?j' =>
      first [ constr_eq p q; constr_eq j j'; reflexivity
            | apply peq_run;
              lazymatch goal with
              | |- peq (Many0 _) (Many0 _) => apply peq_Many0
              | |- peq (Many1 _) (Many1 _) => apply peq_Many1
              | |- peq (Cmpl _) (Cmpl _) => apply peq_Cmpl
              | |- peq (Opt _) (Opt _) => apply peq_Opt
              | |- peq (Alt _ _) (Alt _ _) => apply peq_Alt
              end; intro; tie_rec
            | reflexivity ]
  end.

Ltac tie_walk :=
  repeat tie_head; apply eq_sym; repeat tie_head;
  lazymatch goal with
  | |- ?L = ?R =>
      tryif tie_split L then tie_walk
      else tryif tie_split R then tie_walk
      else lazymatch goal with
           | |- bindr (run _ _) _ = bindr (run _ _) _ =>
               first [ apply bindr_cong; [ tie_atom tie_walk | ] | tie_absurd ]; intros ? ?; cbv beta; tie_walk
           | _ => tie_close
           end
  end.
Ltac tie_body := tie_unfold; tie_walk.
(* a tie starts from `src_f args i = run (f args) i`: unfold the translated function and the model's parser *)
Ltac tie :=
  intros; lazymatch goal with |- ?l = run ?p _ => let f := head l in let g := head p in unfold f, g end; tie_body.

(* T13: serializer ties (`src_gen_x args = gen_x args`).
   The same plan over the serializer's monad ([sbind], Model/Serialize.v; [scat], and [sall] of a written-out list, are
   binds): both sides to the form `sbind a K` with a serializer a that the tie does not look into (an argument, a list
   of serialized elements), one congruence step under the binder, and at the end two byte strings that differ by the
   bracketing of `++` and by the truncating casts the source writes out (`len as u16`). *)
Lemma sbind_wrap a b : sbind a SerOk = sbind b SerOk -> a = b.
Proof. destruct a, b; exact (fun H => H). Qed.
Lemma sbind_assoc a k g : sbind (sbind a k) g = sbind a (fun x => sbind (k x) g).
Proof. destruct a; reflexivity. Qed.
Lemma sbind_cong a k k' : (forall b, k b = k' b) -> sbind a k = sbind a k'.
Proof. intros H. destruct a; cbn [sbind]; auto. Qed.
Lemma sall_map_ok {A} (f : A -> list byte) l : sall (map (fun x => SerOk (f x)) l) = SerOk (concat (map f l)).
Proof. induction l as [|a l IH]; [reflexivity|]. cbn [map sall concat]. rewrite IH. reflexivity. Qed.

Ltac ser_head := lazymatch goal with |- sbind (sbind _ _) _ = _ => hd sbind_assoc; cbn [sbind] end.
Ltac ser_walk :=
  cbn [sbind]; repeat ser_head; apply eq_sym; repeat ser_head;
  lazymatch goal with
  | |- ?L = ?R =>
      tryif blocker L ltac:(fun c => destruct c) then ser_walk
      else tryif blocker R ltac:(fun c => destruct c) then ser_walk
      else lazymatch goal with
           | |- sbind ?a _ = sbind ?a _ => apply sbind_cong; intro; ser_walk
           | |- SerOk _ = SerOk _ => unfold u8, u16, u24; rewrite ?be_enc_mod_pow, <- ?app_assoc, ?app_nil_r; reflexivity
           | |- _ => reflexivity
           end
  end.
(* the model's helpers and constants, and the sequences whose elements all succeed, first *)
Ltac ser_tie_body :=
  cbn [sall];
  cbv beta zeta delta
      [gen_tls_ext_sni gen_tls_ext_max_fragment_length gen_tls_named_group gen_tls_ext_elliptic_curves gen_tls_sessionid_ser
       maybe_extensions_ser gen_tls_clientkeyexchange_unknown gen_tls_clientkeyexchange_dh gen_tls_clientkeyexchange_ecdh
       gen_tls_hellorequest gen_tls_finished gen_tls_changecipherspec tagged_extension length_be_u16 length_be_u24
       gen_tls_sessionid maybe_extensions gen_tls_ext_sni_hostname g_id scat
       ser_ccs_byte ser_ty_clienthello ser_ty_serverhello ser_ty_serverhello13 ser_ty_cke_unknown ser_ty_cke_dh ser_ty_cke_ecdh
       ser_ty_hellorequest ser_ty_finished ser_tag_sni ser_tag_mfl ser_tag_groups];
  rewrite ?sall_map_ok; apply sbind_wrap; ser_walk.
Ltac ser_tie :=
  intros; lazymatch goal with |- ?l = ?r => let f := head l in let g := head r in unfold f, g end; ser_tie_body.
