(* Ties that the generic tactic cannot state as a plain equality.

   `Ok((&[], v))`: the source returns Rust's static empty slice as remainder, the model the empty suffix of the input
   (`Take (slen i)`).  Both are empty; only the (meaningless) address differs, which both printers omit.  The tie is
   therefore stated up to the offset of an empty remainder. *)
From TlsModel Require Import ModelExtra SrcGlue SrcParsers.
From TlsModel Require Import RunLemmas.

(* same value, and remainders that are both empty *)
Definition ok_empty_rem {A} (x y : res A) : Prop :=
  exists r r' a, x = Ok r a /\ y = Ok r' a /\ bytes r = [] /\ bytes r' = [].

(* `Ok((&[], c(i)))` against "take everything, then c" *)
Lemma tie_take_all {A} (c : slice -> A) i :
  ok_empty_rem (Ok sempty (c i)) (run (let* i := GetI in let* s := Take (slen i) in Ret (c s)) i).
Proof. destruct i as [o b]. rewrite run_take_whole. now exists sempty, (mkS (o + lenN b) []), (c (mkS o b)). Qed.

Lemma tie_parse_tls_message_applicationdata : forall i,
  ok_empty_rem (src_parse_tls_message_applicationdata i) (run parse_tls_message_applicationdata i).
Proof. exact (tie_take_all MApplicationData). Qed.

Lemma tie_parse_dtls_fragment : forall i,
  ok_empty_rem (src_parse_dtls_fragment i) (run parse_dtls_fragment i).
Proof. exact (tie_take_all DFragment). Qed.
