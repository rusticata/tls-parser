(* C07: the record defragmenter (Model/Defrag.v) by state: equations for its two entry points, an invariant rule for
   histories, and the refinement of a fragmented payload to parsing the concatenation in one shot. *)
From TlsModel Require Import Defrag BytesLemmas Consts.
From Coq Require Import Lia.

Definition one_shot (ty ver : N) (p : list byte) : res (list TlsMessage) :=
  run (parse_tls_record_with_header (mkHdr ty ver (lenN p mod 65536))) (mkS 0 p).
Definition needs_more {A} (r : res A) : bool :=
  match r with Incomplete _ => true | _ => is_complete_err r end.
Definition hdr_of (ty ver : N) (data : list byte) := mkHdr ty ver (lenN data mod 65536).

(* what the two entry points do, by state.  The six-way matches of [parse_record] on the parser's
   result collapse to [needs_more] (idle) and [map_complete] (defragmenting); everything below uses
   these equations and never unfolds [parse_record] again *)
Lemma nocopy_idle s hdr data : d_cur s = None ->
  nocopy s hdr data = (s, (Caller, map_complete (run (parse_tls_record_with_header hdr) (mkS 0 data)))).
Proof. unfold nocopy, defrag_in_progress. now intros ->. Qed.

Lemma nocopy_refused s hdr data : d_cur s <> None ->
  nocopy s hdr data = (s, (Caller, Fail empty_in KNonEmpty)).
Proof. unfold nocopy, defrag_in_progress. destruct (d_cur s); [reflexivity | congruence]. Qed.

Lemma parse_record_idle dbg s hdr data : d_cur s = None ->
  parse_record dbg s hdr data =
    if (h_type hdr =? 21) || (h_type hdr =? 20) then nocopy s hdr data else
    let r := run (parse_tls_record_with_header hdr) (mkS 0 data) in
    if needs_more r then (mkD data (Some (h_type hdr)), (Caller, Incomplete Unknown)) else (s, (Caller, r)).
Proof.
  intros Hc. unfold parse_record. rewrite Hc. destruct (run _ _); reflexivity.
Qed.

Lemma parse_record_busy dbg s t hdr data : d_cur s = Some t ->
  parse_record dbg s hdr data =
    if dbg && (lenN (d_buf s) =? 0) then (s, (Caller, Panic)) else
    if negb (h_type hdr =? t) then (s, (Caller, Err empty_in KTag)) else
    if MAX_RECORD_DATA <=? lenN (d_buf s) + lenN data then (s, (Caller, Err empty_in KTooLarge)) else
    let r := one_shot (h_type hdr) (h_version hdr) (d_buf s ++ data) in
    (mkD (d_buf s ++ data) (match r with Ok _ _ => None | _ => Some t end), (Buffer, map_complete r)).
Proof.
  intros Hc. unfold parse_record, one_shot. rewrite Hc. destruct (run _ _); reflexivity.
Qed.

Lemma step_parse dbg s hdr data :
  step dbg s (OpParse hdr data) = (fst (parse_record dbg s hdr data), Some (snd (parse_record dbg s hdr data))).
Proof. cbn [step]. now destruct (parse_record dbg s hdr data). Qed.
Lemma step_nocopy dbg s hdr data :
  step dbg s (OpNoCopy hdr data) = (s, Some (snd (nocopy s hdr data))).
Proof. cbn [step]. unfold nocopy. now destruct (defrag_in_progress s). Qed.

Lemma map_complete_ok {A} (r : res A) rem v : map_complete r = Ok rem v -> r = Ok rem v.
Proof. unfold map_complete. destruct (is_complete_err r); [discriminate | auto]. Qed.

Lemma assertion_holds dbg s : (dbg = true -> d_buf s <> []) -> dbg && (lenN (d_buf s) =? 0) = false.
Proof.
  destruct dbg; [|reflexivity]. intros H. apply N.eqb_neq. intros E. now apply H, lenN_nil_inv.
Qed.

Lemma foreign_type dbg s t hdr data : d_cur s = Some t -> (dbg = true -> d_buf s <> []) -> h_type hdr <> t ->
  parse_record dbg s hdr data = (s, (Caller, Err empty_in KTag)).
Proof.
  intros Hc Hb Ht. rewrite (parse_record_busy _ _ _ _ _ Hc), (assertion_holds _ _ Hb).
  now rewrite (proj2 (N.eqb_neq _ _) Ht).
Qed.

Lemma too_large dbg s t hdr data : d_cur s = Some t -> (dbg = true -> d_buf s <> []) -> h_type hdr = t ->
  MAX_RECORD_DATA <= lenN (d_buf s) + lenN data ->
  parse_record dbg s hdr data = (s, (Caller, Err empty_in KTooLarge)).
Proof.
  intros Hc Hb Ht Hl. rewrite (parse_record_busy _ _ _ _ _ Hc), (assertion_holds _ _ Hb).
  now rewrite (proj2 (N.eqb_eq _ _) Ht), (proj2 (N.leb_le _ _) Hl).
Qed.

(* the third outcome while defragmenting: the fragment is appended and the whole buffer parsed *)
Lemma appended dbg s hdr data : d_cur s = Some (h_type hdr) -> (dbg = true -> d_buf s <> []) ->
  lenN (d_buf s) + lenN data < MAX_RECORD_DATA ->
  parse_record dbg s hdr data =
    let r := one_shot (h_type hdr) (h_version hdr) (d_buf s ++ data) in
    (mkD (d_buf s ++ data) (match r with Ok _ _ => None | _ => Some (h_type hdr) end), (Buffer, map_complete r)).
Proof.
  intros Hc Hb Hl. rewrite (parse_record_busy _ _ _ _ _ Hc), (assertion_holds _ _ Hb), N.eqb_refl.
  now rewrite (proj2 (N.leb_gt _ _) Hl).
Qed.

(* a record that parses on its own is returned from the caller's data, nothing is buffered *)
Lemma single_record dbg s hdr data r v : d_cur s = None ->
  run (parse_tls_record_with_header hdr) (mkS 0 data) = Ok r v ->
  parse_record dbg s hdr data = (s, (Caller, Ok r v)).
Proof.
  intros Hc Hr. rewrite (parse_record_idle _ _ _ _ Hc), (nocopy_idle _ _ _ Hc), Hr. now destruct (_ || _).
Qed.

(* the other outcome of an idle parser: a record (not alert / CCS) that needs more bytes starts defragmentation *)
Lemma first_fragment dbg s hdr data : d_cur s = None -> h_type hdr <> 21 -> h_type hdr <> 20 ->
  needs_more (run (parse_tls_record_with_header hdr) (mkS 0 data)) = true ->
  parse_record dbg s hdr data = (mkD data (Some (h_type hdr)), (Caller, Incomplete Unknown)).
Proof.
  intros Hc H21 H20 Hn. rewrite (parse_record_idle _ _ _ _ Hc), (proj2 (N.eqb_neq _ _) H21), (proj2 (N.eqb_neq _ _) H20).
  cbn [orb]. now rewrite Hn.
Qed.

(* Q speaks of an entry of [run_ops]: (answer, state after), the pair of [step] the other way round *)
Lemma run_ops_inv dbg (Inv : defrag_state -> Prop) (Pre : dop -> Prop) (Q : option dout * defrag_state -> Prop) :
  (forall s o, Inv s -> Pre o -> Inv (fst (step dbg s o)) /\ Q (snd (step dbg s o), fst (step dbg s o))) ->
  forall ops s, Inv s -> Forall Pre ops -> Forall Q (run_ops dbg s ops).
Proof.
  intros Hstep. induction ops as [|o t IH]; intros s Hi Hf; cbn [run_ops]; [constructor|].
  inversion Hf as [|? ? Ho Ht]. destruct (Hstep s o Hi Ho) as [Hi' Hq].
  destruct (step dbg s o) as [s' r]. constructor; [exact Hq|]. destruct (is_panic r); [constructor | now apply IH].
Qed.

(* [bounded] speaks of a parser that is defragmenting only: the buffer of an idle one is stale and unobservable
   (see [alike]) *)
Definition record_within_cap (o : dop) : Prop :=
  match o with
  | OpParse _ data | OpNoCopy _ data => lenN data <= MAX_RECORD_LEN
  | OpReset => True
  end.
Definition bounded (s : defrag_state) : Prop :=
  d_cur s <> None -> lenN (d_buf s) < MAX_RECORD_DATA.

Lemma step_bounded dbg s o : bounded s -> record_within_cap o -> bounded (fst (step dbg s o)).
Proof.
  intros Hb Ho. destruct o as [hdr data|hdr data|]; [rewrite step_parse | rewrite step_nocopy; exact Hb | intros H; now elim H].
  cbn [fst record_within_cap] in *. destruct (d_cur s) as [t|] eqn:Hc.
  - rewrite (parse_record_busy _ _ _ _ _ Hc).
    destruct (dbg && _); [exact Hb|]. destruct (negb _); [exact Hb|].
    destruct (N.leb_spec MAX_RECORD_DATA (lenN (d_buf s) + lenN data)); [exact Hb|].
    intros _. cbn [fst d_buf]. now rewrite lenN_app.
  - rewrite (parse_record_idle _ _ _ _ Hc), (nocopy_idle _ _ _ Hc). destruct (_ || _); [exact Hb|].
    cbv zeta. destruct (needs_more _); [|exact Hb]. intros _.
    (* MAX_RECORD_LEN < MAX_RECORD_DATA, by their values *)
    apply N.le_lt_trans with (1 := Ho). reflexivity.
Qed.

Theorem buffer_bound dbg : forall ops s, bounded s -> Forall record_within_cap ops ->
  Forall (fun e => bounded (snd e)) (run_ops dbg s ops).
Proof. apply (run_ops_inv dbg bounded). intros s o Hb Ho. split; now apply step_bounded. Qed.

Lemma init_bounded : bounded d_init.
Proof. intros H. now elim H. Qed.

(* an idle parser behaves like a fresh one (the stale buffer is unobservable) *)
Definition alike (a b : defrag_state) : Prop := a = b \/ d_cur a = None /\ d_cur b = None.

Lemma step_alike dbg a b o : alike a b ->
  snd (step dbg a o) = snd (step dbg b o) /\ alike (fst (step dbg a o)) (fst (step dbg b o)).
Proof.
  intros [->|[Ha Hb]]; [split; [reflexivity | now left]|].
  destruct o as [hdr data|hdr data|]; [rewrite !step_parse | rewrite !step_nocopy | split; [reflexivity | now left]].
  - rewrite (parse_record_idle _ _ _ _ Ha), (parse_record_idle _ _ _ _ Hb), (nocopy_idle _ _ _ Ha), (nocopy_idle _ _ _ Hb).
    cbv zeta. destruct (_ || _); [|destruct (needs_more _)]; (split; [reflexivity|]).
    + now right.
    + (* both start defragmenting, with the same buffer *) now left.
    + now right.
  - rewrite (nocopy_idle _ _ _ Ha), (nocopy_idle _ _ _ Hb). split; [reflexivity | now right].
Qed.

Definition observe (l : list (option dout * defrag_state)) : list (option dout * bool) :=
  map (fun e => (fst e, defrag_in_progress (snd e))) l.

Theorem alike_runs dbg : forall ops a b, alike a b ->
  observe (run_ops dbg a ops) = observe (run_ops dbg b ops).
Proof.
  induction ops as [|o t IH]; intros a b H; cbn [run_ops]; [reflexivity|].
  destruct (step_alike dbg a b o H) as [Ho Hs].
  destruct (step dbg a o) as [a' ra], (step dbg b o) as [b' rb]. cbn [fst snd] in *. subst rb.
  unfold observe; cbn [map fst snd]. f_equal.
  - unfold defrag_in_progress. now destruct Hs as [->|[-> ->]].
  - destruct (is_panic ra); [reflexivity | now apply IH].
Qed.

Corollary idle_is_fresh dbg s ops : d_cur s = None ->
  observe (run_ops dbg s ops) = observe (run_ops dbg d_init ops).
Proof. intros H. apply alike_runs. now right. Qed.

Definition frag_ops (ty ver : N) (frags : list (list byte)) : list dop :=
  map (fun f => OpParse (hdr_of ty ver f) f) frags.

(* every proper prefix of the concatenation still needs more bytes: the first message is
   completed only by the last fragment *)
Fixpoint prefixes_need_more (ty ver : N) (acc : list byte) (rest : list (list byte)) : Prop :=
  match rest with
  | [] => True
  | f :: rest' =>
      (rest' <> [] -> needs_more (one_shot ty ver (acc ++ f)) = true) /\
      prefixes_need_more ty ver (acc ++ f) rest'
  end.

Definition is_inc (o : option dout) : bool :=
  match o with Some (_, Incomplete _) => true | _ => false end.

Definition mid_ok (e : option dout * defrag_state) : Prop :=
  is_inc (fst e) = true /\ defrag_in_progress (snd e) = true.

(* a fragment after which more is needed, appended while defragmenting *)
Lemma needs_more_appended {A} (r : res A) (t : N) : needs_more r = true ->
  (match r with Ok _ _ => None | _ => Some t end) = Some t /\ exists n, map_complete r = Incomplete n.
Proof.
  unfold map_complete. destruct r as [? ?|? []|? []|n| |]; cbn; try discriminate; eauto.
Qed.

(* the fragments after the first: each is appended and the whole buffer parsed; the answer to the last is what
   the one-shot parser says of the concatenation, whatever that is *)
Lemma later_fragments dbg ty ver : forall rest acc,
  rest <> [] ->
  (dbg = true -> acc <> []) ->
  lenN (acc ++ concat rest) < MAX_RECORD_DATA ->
  prefixes_need_more ty ver acc rest ->
  let r := one_shot ty ver (acc ++ concat rest) in
  exists mids,
    run_ops dbg (mkD acc (Some ty)) (frag_ops ty ver rest) =
      mids ++ [(Some (Buffer, map_complete r),
                mkD (acc ++ concat rest) (match r with Ok _ _ => None | _ => Some ty end))] /\
    S (length mids) = length rest /\ Forall mid_ok mids.
Proof.
  unfold frag_ops. induction rest as [|f rest IH]; intros acc Hne; [congruence|]. intros Hdbg Hlen [Hp1 Hp2].
  cbn [concat] in *. rewrite !lenN_app in Hlen.
  cbn [map run_ops]. rewrite step_parse, appended by (cbn [d_cur d_buf hdr_of h_type]; auto; lia).
  cbn [fst snd d_buf hdr_of h_type h_version]. destruct rest as [|g rest'].
  - (* the last fragment *)
    rewrite app_nil_r. exists []. split; [now destruct (is_panic _) | split; constructor].
  - (* a middle fragment *)
    destruct (needs_more_appended _ ty (Hp1 ltac:(discriminate))) as [-> [n ->]].
    destruct (IH (acc ++ f)) as [mids [E [Hl Hmid]]];
      [discriminate | intros Hd [E _]%app_eq_nil; exact (Hdbg Hd E) | rewrite !lenN_app; lia | exact Hp2 |].
    rewrite <- app_assoc in E. rewrite E. exists ((Some (Buffer, Incomplete n), mkD (acc ++ f) (Some ty)) :: mids).
    cbn [length] in *. repeat split; [now rewrite Hl | constructor; [split; reflexivity | exact Hmid]].
Qed.

(* the whole history from an idle parser: k - 1 Incomplete answers with defragmentation in
   progress, then exactly the one-shot result (from the internal buffer), and the parser is idle *)
Theorem split dbg ty ver f1 rest s r v :
  ty <> 21 -> ty <> 20 ->
  d_cur s = None ->
  rest <> [] ->
  (dbg = true -> f1 <> []) ->
  lenN (concat (f1 :: rest)) < MAX_RECORD_DATA ->
  prefixes_need_more ty ver [] (f1 :: rest) ->
  one_shot ty ver (concat (f1 :: rest)) = Ok r v ->
  exists mids,
    run_ops dbg s (frag_ops ty ver (f1 :: rest)) =
      mids ++ [(Some (Buffer, Ok r v), mkD (concat (f1 :: rest)) None)] /\
    length mids = length rest /\ Forall mid_ok mids.
Proof.
  intros H21 H20 Hc Hne Hdbg Hlen [Hp1 Hp2] Hok.
  destruct (later_fragments dbg ty ver rest f1 Hne Hdbg Hlen Hp2) as [mids [E [Hl Hmid]]].
  cbn [concat] in *. rewrite Hok in E.
  (* [one_shot ty ver ([] ++ f1)] in [Hp1] is, by definition, the parser under [hdr_of ty ver f1] on [f1] *)
  cbn [frag_ops map run_ops]. rewrite step_parse, (first_fragment dbg s (hdr_of ty ver f1) f1 Hc H21 H20 (Hp1 Hne)).
  cbn [fst snd is_panic hdr_of h_type]. unfold frag_ops in E. rewrite E. exists ((Some (Caller, Incomplete Unknown), mkD f1 (Some ty)) :: mids).
  repeat split; [cbn [length]; now rewrite Hl | constructor; [split; reflexivity | exact Hmid]].
Qed.
