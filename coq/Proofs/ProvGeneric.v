(* C06, provenance: every slice reachable from a value returned by a parser is a sub-slice of the
   caller's input that ends before the remainder starts (offsets are absolute, so "sub-slice" means
   the same bytes at the same address).  Compositional over the combinator language. *)
From TlsModel Require Import Nom BytesLemmas RunLemmas NomGeneric.
From Coq Require Import Lia.

Definition within (c s : slice) : Prop :=
  exists pre post, bytes c = pre ++ bytes s ++ post /\ off s = off c + lenN pre.
Definition before (i r s : slice) : Prop := within i s /\ off s + slen s <= off r.

Lemma within_refl c : within c c.
Proof. exists [], []. cbn [app lenN]. rewrite app_nil_r. split; [reflexivity | lia]. Qed.
Lemma within_trans a b c : within a b -> within b c -> within a c.
Proof.
  intros [p1 [q1 [H1 O1]]] [p2 [q2 [H2 O2]]]. exists (p1 ++ p2), (q2 ++ q1). split.
  - rewrite H1, H2. repeat rewrite <- app_assoc. reflexivity.
  - rewrite lenN_app. lia.
Qed.
Lemma suffix_within i r : suffix_of i r -> within i r.
Proof.
  intros [n [Hn ->]]. exists (takeN (bytes i) n), []. unfold sdrop; cbn [bytes off].
  rewrite app_nil_r, takeN_dropN, lenN_takeN by (unfold slen in Hn; exact Hn). split; reflexivity.
Qed.
Lemma suffix_off i r : suffix_of i r -> off i <= off r /\ off r + slen r = off i + slen i.
Proof.
  intros [n [Hn ->]]. unfold sdrop, slen in *; cbn [bytes off]. rewrite lenN_dropN. lia.
Qed.
Lemma within_off c s : within c s -> off c <= off s /\ off s + slen s <= off c + slen c.
Proof.
  intros [p [q [H O]]]. unfold slen. rewrite H, !lenN_app. lia.
Qed.
Lemma before_mono1 i r1 r2 s : suffix_of r1 r2 -> before i r1 s -> before i r2 s.
Proof. intros H2 [Hw Ho]. split; [exact Hw|]. apply suffix_off in H2. lia. Qed.
Lemma before_mono2 i r1 r2 s : suffix_of i r1 -> before r1 r2 s -> before i r2 s.
Proof. intros H1 [Hw Ho]. split; [|exact Ho]. eapply within_trans; [apply suffix_within; exact H1 | exact Hw]. Qed.
Lemma before_within i r c s : before i r c -> within c s -> before i r s.
Proof. intros [Hw Ho] H. split; [eapply within_trans; eauto | apply within_off in H; lia]. Qed.

Class HasSlices (A : Type) := slices : A -> list slice.
#[export] Instance HS_N : HasSlices N := fun _ => [].
#[export] Instance HS_bool : HasSlices bool := fun _ => [].
#[export] Instance HS_unit : HasSlices unit := fun _ => [].
#[export] Instance HS_byte : HasSlices byte := fun _ => [].
#[export] Instance HS_slice : HasSlices slice := fun s => [s].
#[export] Instance HS_option A `{HasSlices A} : HasSlices (option A) :=
  fun o => match o with Some a => slices a | None => [] end.
#[export] Instance HS_prod A B `{HasSlices A} `{HasSlices B} : HasSlices (A * B) :=
  fun p => slices (fst p) ++ slices (snd p).
#[export] Instance HS_list A `{HasSlices A} : HasSlices (list A) := fun l => flat_map slices l.

Class NoSlices A `{HasSlices A} := no_slices : forall v : A, slices v = [].
#[export] Instance NS_N : NoSlices N. Proof. intros v; reflexivity. Qed.
#[export] Instance NS_bool : NoSlices bool. Proof. intros v; reflexivity. Qed.
#[export] Instance NS_unit : NoSlices unit. Proof. intros v; reflexivity. Qed.
#[export] Instance NS_byte : NoSlices byte. Proof. intros v; reflexivity. Qed.
#[export] Instance NS_option A `{NoSlices A} : NoSlices (option A).
Proof. intros [a|]; [exact (no_slices a) | reflexivity]. Qed.
#[export] Instance NS_prod A B `{NoSlices A} `{NoSlices B} : NoSlices (A * B).
Proof. intros [a b]. unfold slices, HS_prod. rewrite (no_slices a), (no_slices b). reflexivity. Qed.
#[export] Instance NS_list A `{NoSlices A} : NoSlices (list A).
Proof.
  intros l. unfold slices, HS_list. induction l as [|a t IH]; cbn [flat_map]; [reflexivity|].
  rewrite IH, (no_slices a). reflexivity.
Qed.

Definition allowed (ctx : list slice) (s : slice) : Prop := exists c, In c ctx /\ within c s.
Lemma allowed_in ctx s : In s ctx -> allowed ctx s.
Proof. intros H; exists s; split; [exact H | apply within_refl]. Qed.
Lemma allowed_within ctx c s : allowed ctx c -> within c s -> allowed ctx s.
Proof. intros [c' [Hc Hw]] H. exists c'. split; [exact Hc | eapply within_trans; eauto]. Qed.
Lemma allowed_mono ctx ctx' s : (forall c, In c ctx -> In c ctx') -> allowed ctx s -> allowed ctx' s.
Proof. intros Hsub [c [Hc Hw]]. exists c. split; [apply Hsub, Hc | exact Hw]. Qed.
Lemma allowed_app_r a ctx s : allowed ctx s -> allowed (a ++ ctx) s.
Proof. apply allowed_mono. intros c Hc. apply in_or_app. right. exact Hc. Qed.

(* provenance relative to a context of slices already known to be fine *)
Definition ProvC {A} `{HasSlices A} (ctx : list slice) (p : P A) : Prop :=
  forall i r v, run p i = Ok r v -> forall s, In s (slices v) -> allowed ctx s \/ before i r s.

Section Lemmas.
  Context {A : Type} `{HA : HasSlices A}.

  Lemma ProvC_noslices ctx (p : P A) `{!NoSlices A} : ProvC ctx p.
  Proof. intros i r v _ s Hs. rewrite (no_slices v) in Hs. destruct Hs. Qed.
  Lemma ProvC_ret ctx (a : A) : (forall s, In s (slices a) -> In s ctx) -> ProvC ctx (Ret a).
  Proof. intros H i r v E s Hs. cbn [run] in E. injection E as <- <-. left. apply allowed_in, H, Hs. Qed.
  Lemma ProvC_errk ctx k : ProvC ctx (@ErrK A k).
  Proof. intros i r v E. discriminate E. Qed.
  Lemma ProvC_panic ctx : ProvC ctx (@PanicP A).
  Proof. intros i r v E. discriminate E. Qed.

  Lemma ProvC_bind B `{HB : HasSlices B} ctx (p : P B) (k : B -> P A) :
    ProvC ctx p -> (forall b, ProvC (slices b ++ ctx) (k b)) -> ProvC ctx (Bind p k).
  Proof.
    intros Hp Hk i r v E s Hs. cbn [run] in E. apply bind_ok in E as (r1 & b & E1 & E).
    pose proof (run_suffix _ _ _ _ _ E1) as S1. pose proof (run_suffix _ _ _ _ _ E) as S2.
    destruct (Hk b r1 r v E s Hs) as [[c [Hc Hw]]|Hb].
    - apply in_app_or in Hc as [Hc|Hc].
      + (* s lies in a slice c of b, and what holds of c holds of its sub-slices *)
        destruct (Hp i r1 b E1 c Hc) as [Ha|Hb].
        * left. eapply allowed_within; eauto.
        * right. eapply before_mono1, before_within; eauto.
      + left. exists c. split; assumption.
    - right. eapply before_mono2; eauto.
  Qed.
  (* when the first result is only inspected (GetI, Idx, Peek: lengths and decoded integers): the rule above
     with no slice counted as reachable from b *)
  Lemma ProvC_bind_any B ctx (p : P B) (k : B -> P A) :
    (forall b, ProvC ctx (k b)) -> ProvC ctx (Bind p k).
  Proof. intros Hk. apply (@ProvC_bind B (fun _ => []) ctx p k); [intros i r b _ s [] | exact Hk]. Qed.
  Lemma ProvC_cmpl ctx (p : P A) : ProvC ctx p -> ProvC ctx (Cmpl p).
  Proof. intros Hp i r v E%run_cmpl_inv. eauto. Qed.
  Lemma ProvC_alt ctx (p q : P A) : ProvC ctx p -> ProvC ctx q -> ProvC ctx (Alt p q).
  Proof.
    intros Hp Hq i r v E. cbn [run] in E. apply handle_ok in E as [(r1 & a & E & [= <- <-]) | (s & e & _ & E)]; eauto.
  Qed.
  Lemma ProvC_vrfy ctx (p : P A) f : ProvC ctx p -> ProvC ctx (Vrfy p f).
  Proof.
    intros Hp i r v E. cbn [run] in E. apply bind_ok in E as (r1 & a & E1 & E). destruct (f a); [|discriminate E]. injection E as <- <-. eauto.
  Qed.
  Lemma ProvC_on ctx s0 (p : P A) : In s0 ctx -> ProvC ctx p -> ProvC ctx (On s0 p).
  Proof.
    intros Hin Hp i r v E s Hs. cbn [run] in E. apply bind_ok in E as (r1 & a & E1 & [= <- <-]).
    destruct (Hp s0 r1 a E1 s Hs) as [Ha|[Hw _]]; [left; exact Ha|]. left. exists s0. split; assumption.
  Qed.
  Lemma ProvC_weaken ctx ctx' (p : P A) : (forall s, In s ctx -> In s ctx') -> ProvC ctx p -> ProvC ctx' p.
  Proof.
    intros Hsub Hp i r v E s Hs.
    destruct (Hp i r v E s Hs) as [Ha|Hb]; [left; exact (allowed_mono _ _ _ Hsub Ha) | right; exact Hb].
  Qed.

End Lemmas.

Lemma ProvC_take ctx n : ProvC ctx (Take n).
Proof.
  intros i r v (Hl & -> & ->)%run_take_ok s [<-|[]]. right. split.
  - exists [], (dropN (bytes i) n). cbn [stake bytes off app lenN]. rewrite takeN_dropN. split; [reflexivity | lia].
  - rewrite slen_stake by exact Hl. cbn [stake sdrop off]. lia.
Qed.

Lemma ProvC_opt A `{HasSlices A} ctx (p : P A) : ProvC ctx p -> ProvC ctx (Opt p).
Proof.
  intros Hp i r v E. cbn [run] in E.
  apply handle_ok in E as [(r1 & a & E & [= <- <-]) | (s' & e & _ & [= <- <-])]; [eauto | intros s []].
Qed.

Lemma ProvC_many0 A `{HasSlices A} ctx (p : P A) : ProvC ctx p -> ProvC ctx (Many0 p).
Proof.
  intros Hp i r l [S _]%run_many0_ok. induction S as [i|i r a l j E _ S IH]; intros s Hs; [destruct Hs|].
  pose proof (run_suffix _ _ _ _ _ E) as S1. pose proof (steps_suffix _ (run_suffix A p) _ _ _ S) as S2.
  apply in_app_or in Hs as [Hs|Hs].
  - destruct (Hp _ _ _ E s Hs) as [Ha|Hb]; [left; exact Ha | right; eapply before_mono1; eauto].
  - destruct (IH s Hs) as [Ha|Hb]; [left; exact Ha | right; eapply before_mono2; eauto].
Qed.
Lemma ProvC_many1 A `{HasSlices A} ctx (p : P A) : ProvC ctx p -> ProvC ctx (Many1 p).
Proof. intros Hp i r l [E _]%run_many1_ok. exact (ProvC_many0 A ctx p Hp i r l E). Qed.

(* top level: with an empty context, every slice lies in the consumed part of the input *)
Definition Prov {A} `{HasSlices A} (p : P A) : Prop :=
  forall i r v, run p i = Ok r v -> forall s, In s (slices v) -> before i r s.
Lemma ProvC_nil A `{HasSlices A} (p : P A) : ProvC [] p -> Prov p.
Proof.
  intros Hp i r v E s Hs. destruct (Hp i r v E s Hs) as [[c [[] _]]|Hb]. exact Hb.
Qed.
Lemma Prov_ProvC A `{HasSlices A} (p : P A) ctx : Prov p -> ProvC ctx p.
Proof. intros Hp i r v E s Hs. right. eapply Hp; eauto. Qed.
