(* C01 (model side): no parser term of the crate can reach Panic (a Rust panic site) or OutOfFuel
   (a loop without progress), on any input.  Compositional; the parsers that slice by index or convert with `expect` (the three list
   decoders, parse_log_id) are proved from their run equations. *)
From TlsModel Require Import Extensions Kx Dtls BytesLemmas NomGeneric RunLemmas.
From Coq Require Import Lia.

(* by the recursion of pairs16 itself, which goes down two bytes at a time *)
Fixpoint pairs16_even l : lenN l mod 2 = 0 -> pairs16 l <> None.
Proof.
  destruct l as [|a [|b t]]; cbn [pairs16 lenN]; intros H.
  - discriminate.
  - lia.
  - pose proof (pairs16_even t) as IH. destruct (pairs16 t); [discriminate | apply IH; lia].
Qed.

Lemma Safe_pairs A s (k : list N -> P A) :
  lenN (bytes s) mod 2 = 0 -> (forall l, Safe (k l)) ->
  Safe (match pairs16 (bytes s) with Some l => k l | None => PanicP end).
Proof. intros H Hk. pose proof (pairs16_even _ H). destruct (pairs16 (bytes s)); [apply Hk | congruence]. Qed.

Lemma Safe_parse_cipher_suites len : Safe (parse_cipher_suites len).
Proof.
  unfold parse_cipher_suites. destruct (len =? 0); [apply Safe_ret|]. intros i. rewrite run_checked_idx.
  destruct (N.eqb_spec (len mod 2) 1) as [|Ho]; [exact I|]. destruct (N.ltb_spec (slen i) len); [exact I|]. 
  apply Safe_pairs; [|intros; apply Safe_ret]. unfold stake; cbn [bytes]. rewrite lenN_takeN by assumption. lia.
Qed.

Lemma Safe_parse_compressions_algs len : Safe (parse_compressions_algs len).
Proof.
  unfold parse_compressions_algs. destruct (len =? 0); [apply Safe_ret|]. intros i.
  rewrite (run_checked_idx _ len false). now destruct (_ || _).
Qed.

(* parse_tls_versions / parse_named_groups: the same decoder with the whole input as the list *)
Lemma run_u16_all_is i : run parse_u16_all i = run (parse_cipher_suites (slen i)) i.
Proof.
  unfold parse_u16_all, parse_cipher_suites. rewrite run_bind, run_geti.  destruct (slen i =? 0); [reflexivity|].
  rewrite run_checked_idx. destruct ((slen i mod 2 =? 1) || (slen i <? slen i)); [reflexivity|].
  now rewrite run_bind, run_idx, N.ltb_irrefl.
Qed.
Lemma Safe_parse_u16_all : Safe parse_u16_all.
Proof. intros i. rewrite run_u16_all_is. apply Safe_parse_cipher_suites. Qed.

#[export] Hint Resolve Safe_parse_cipher_suites Safe_parse_compressions_algs Safe_parse_u16_all : safe.

(* parse_log_id: take(32) then the conversion to [u8;32] cannot fail *)
Lemma Safe_parse_log_id : Safe parse_log_id.
Proof.
  unfold parse_log_id. intros i. rewrite run_bind, run_take.
  destruct (N.ltb_spec (slen i) 32) as [Hl|Hl]; [exact I|].
  rewrite slen_stake by exact Hl. exact I.
Qed.
#[export] Hint Resolve Safe_parse_log_id : safe.

(* the derived combinators, unfolded where the walk meets them *)
Ltac nom_unfold :=
  unfold pmap, length_data, map_parser, cond, be_u8, be_u16, be_u24, be_u32, be_u64, opt_ext,
         length_count_u8_u8, tagged, with_len, empty_only.
#[export] Hint Extern 5 (Safe _) => progress nom_unfold : safe.
Ltac solve_safe := solve [auto 40 with safe nocore].
(* a parser given by a definition: unfold it, then walk its term *)
Ltac safe_def := lazymatch goal with |- Safe ?p => let h := head p in unfold h end; solve_safe.

(* src/tls_handshake.rs *)
Lemma Safe_client_hello : Safe parse_tls_handshake_client_hello.
Proof. safe_def. Qed.
#[export] Hint Resolve Safe_client_hello : safe.
Lemma Safe_msg_client_hello : Safe parse_tls_handshake_msg_client_hello.
Proof. safe_def. Qed.
Lemma Safe_certs : Safe parse_certs.
Proof. safe_def. Qed.
#[export] Hint Resolve Safe_msg_client_hello Safe_certs : safe.
Lemma Safe_sh12 b : Safe (parse_tls_server_hello_tlsv12 b).
Proof. safe_def. Qed.
#[export] Hint Resolve Safe_sh12 : safe.
Lemma Safe_msg_sh12 b : Safe (parse_tls_handshake_msg_server_hello_tlsv12 b).
Proof. safe_def. Qed.
Lemma Safe_msg_sh13 : Safe parse_tls_handshake_msg_server_hello_tlsv13draft18.
Proof. safe_def. Qed.
#[export] Hint Resolve Safe_msg_sh12 Safe_msg_sh13 : safe.
Lemma Safe_server_hello : Safe parse_tls_handshake_server_hello.
Proof. safe_def. Qed.
Lemma Safe_msg_server_hello : Safe parse_tls_handshake_msg_server_hello.
Proof. safe_def. Qed.
#[export] Hint Resolve Safe_server_hello Safe_msg_server_hello : safe.
Lemma Safe_nst len : Safe (parse_tls_handshake_msg_newsessionticket len).
Proof. safe_def. Qed.
Lemma Safe_hrr : Safe parse_tls_handshake_msg_hello_retry_request.
Proof. safe_def. Qed.
Lemma Safe_certificate : Safe parse_tls_certificate.
Proof. safe_def. Qed.
#[export] Hint Resolve Safe_nst Safe_hrr Safe_certificate : safe.
Lemma Safe_msg_certificate : Safe parse_tls_handshake_msg_certificate.
Proof. safe_def. Qed.
Lemma Safe_ske len : Safe (parse_tls_handshake_msg_serverkeyexchange len).
Proof. safe_def. Qed.
Lemma Safe_sdone len : Safe (parse_tls_handshake_msg_serverdone len).
Proof. safe_def. Qed.
Lemma Safe_cverify len : Safe (parse_tls_handshake_msg_certificateverify len).
Proof. safe_def. Qed.
Lemma Safe_cke0 len : Safe (parse_tls_clientkeyexchange len).
Proof. safe_def. Qed.
#[export] Hint Resolve Safe_msg_certificate Safe_ske Safe_sdone Safe_cverify Safe_cke0 : safe.
Lemma Safe_cke len : Safe (parse_tls_handshake_msg_clientkeyexchange len).
Proof. safe_def. Qed.
Lemma Safe_ca_list : Safe ca_list.
Proof. safe_def. Qed.
#[export] Hint Resolve Safe_cke Safe_ca_list : safe.
Lemma Safe_cr_nosig : Safe parse_certrequest_nosigalg.
Proof. safe_def. Qed.
Lemma Safe_cr_full : Safe parse_certrequest_full.
Proof. safe_def. Qed.
#[export] Hint Resolve Safe_cr_nosig Safe_cr_full : safe.
Lemma Safe_cr : Safe parse_tls_handshake_certificaterequest.
Proof. safe_def. Qed.
#[export] Hint Resolve Safe_cr : safe.
Lemma Safe_msg_cr : Safe parse_tls_handshake_msg_certificaterequest.
Proof. safe_def. Qed.
Lemma Safe_finished len : Safe (parse_tls_handshake_msg_finished len).
Proof. safe_def. Qed.
Lemma Safe_cstatus : Safe parse_tls_handshake_certificatestatus.
Proof. safe_def. Qed.
#[export] Hint Resolve Safe_msg_cr Safe_finished Safe_cstatus : safe.
Lemma Safe_msg_cstatus : Safe parse_tls_handshake_msg_certificatestatus.
Proof. safe_def. Qed.
Lemma Safe_np : Safe parse_tls_handshake_next_protocol.
Proof. safe_def. Qed.
#[export] Hint Resolve Safe_msg_cstatus Safe_np : safe.
Lemma Safe_msg_np : Safe parse_tls_handshake_msg_next_protocol.
Proof. safe_def. Qed.
Lemma Safe_ku : Safe parse_tls_handshake_msg_key_update.
Proof. safe_def. Qed.
Lemma Safe_hreq : Safe parse_tls_handshake_msg_hello_request.
Proof. safe_def. Qed.
#[export] Hint Resolve Safe_msg_np Safe_ku Safe_hreq : safe.
Lemma Safe_hs_body b hl : Safe (hs_body b hl).
Proof. destruct b; cbn [hs_body]; solve_safe. Qed.
#[export] Hint Resolve Safe_hs_body : safe.
Lemma Safe_message_handshake : Safe parse_tls_message_handshake.
Proof. safe_def. Qed.
#[export] Hint Resolve Safe_message_handshake : safe.

(* src/tls_message.rs, src/tls_record.rs *)
Lemma Safe_ccs : Safe parse_tls_message_changecipherspec.
Proof. safe_def. Qed.
Lemma Safe_alert : Safe parse_tls_message_alert.
Proof. safe_def. Qed.
Lemma Safe_appdata : Safe parse_tls_message_applicationdata.
Proof. safe_def. Qed.
Lemma Safe_heartbeat l : Safe (parse_tls_message_heartbeat l).
Proof. safe_def. Qed.
Lemma Safe_header : Safe parse_tls_record_header.
Proof. safe_def. Qed.
#[export] Hint Resolve Safe_ccs Safe_alert Safe_appdata Safe_heartbeat Safe_header : safe.
Lemma Safe_rec_body b hdr : Safe (rec_body b hdr).
Proof. destruct b; cbn [rec_body]; solve_safe. Qed.
#[export] Hint Resolve Safe_rec_body : safe.
Lemma Safe_with_header hdr : Safe (parse_tls_record_with_header hdr).
Proof. safe_def. Qed.
#[export] Hint Resolve Safe_with_header : safe.
Lemma Safe_plaintext : Safe parse_tls_plaintext.
Proof. safe_def. Qed.
Lemma Safe_encrypted : Safe parse_tls_encrypted.
Proof. safe_def. Qed.
Lemma Safe_raw : Safe parse_tls_raw_record.
Proof. safe_def. Qed.
#[export] Hint Resolve Safe_plaintext Safe_encrypted Safe_raw : safe.
Lemma Safe_many : Safe tls_parser_many.
Proof. safe_def. Qed.
#[export] Hint Resolve Safe_many : safe.

(* src/tls_extensions.rs *)
Lemma Safe_sni_hostname : Safe parse_tls_extension_sni_hostname. Proof. safe_def. Qed.
#[export] Hint Resolve Safe_sni_hostname : safe.
Lemma Safe_sni_content : Safe parse_tls_extension_sni_content. Proof. safe_def. Qed.
Lemma Safe_mfl_content : Safe parse_tls_extension_max_fragment_length_content. Proof. safe_def. Qed.
Lemma Safe_status_content l : Safe (parse_tls_extension_status_request_content l). Proof. safe_def. Qed.
Lemma Safe_named_groups : Safe parse_named_groups. Proof. safe_def. Qed.
#[export] Hint Resolve Safe_named_groups : safe.
Lemma Safe_tls_versions : Safe parse_tls_versions. Proof. safe_def. Qed.
#[export] Hint Resolve Safe_tls_versions : safe.
Lemma Safe_ec_content : Safe parse_tls_extension_elliptic_curves_content. Proof. safe_def. Qed.
Lemma Safe_ecpf_content : Safe parse_tls_extension_ec_point_formats_content. Proof. safe_def. Qed.
Lemma Safe_sigalg_content : Safe parse_tls_extension_signature_algorithms_content. Proof. safe_def. Qed.
Lemma Safe_hb_content : Safe parse_tls_extension_heartbeat_content. Proof. safe_def. Qed.
Lemma Safe_protocol_name : Safe parse_protocol_name. Proof. safe_def. Qed.
#[export] Hint Resolve Safe_protocol_name : safe.
Lemma Safe_alpn_content : Safe parse_tls_extension_alpn_content. Proof. safe_def. Qed.
Lemma Safe_padding_content l : Safe (parse_tls_extension_padding_content l). Proof. safe_def. Qed.
Lemma Safe_sct_content : Safe parse_tls_extension_signed_certificate_timestamp_content. Proof. safe_def. Qed.
Lemma Safe_empty_only l v : Safe (empty_only l v). Proof. safe_def. Qed.
#[export] Hint Resolve Safe_empty_only : safe.
Lemma Safe_rsl : Safe parse_tls_extension_record_size_limit. Proof. safe_def. Qed.
Lemma Safe_ticket_content l : Safe (parse_tls_extension_session_ticket_content l). Proof. safe_def. Qed.
Lemma Safe_kso_content l : Safe (parse_tls_extension_key_share_old_content l). Proof. safe_def. Qed.
Lemma Safe_ks_content l : Safe (parse_tls_extension_key_share_content l). Proof. safe_def. Qed.
Lemma Safe_psk_content l : Safe (parse_tls_extension_pre_shared_key_content l). Proof. safe_def. Qed.
Lemma Safe_ed_content l : Safe (parse_tls_extension_early_data_content l). Proof. safe_def. Qed.
Lemma Safe_sv_content l : Safe (parse_tls_extension_supported_versions_content l). Proof. safe_def. Qed.
Lemma Safe_cookie_content l : Safe (parse_tls_extension_cookie_content l). Proof. safe_def. Qed.
Lemma Safe_pskm_content : Safe parse_tls_extension_psk_key_exchange_modes_content. Proof. safe_def. Qed.
Lemma Safe_reneg_content : Safe parse_tls_extension_renegotiation_info_content. Proof. safe_def. Qed.
Lemma Safe_esni : Safe parse_tls_extension_encrypted_server_name. Proof. safe_def. Qed.
Lemma Safe_oid_filter : Safe parse_tls_oid_filter. Proof. safe_def. Qed.
#[export] Hint Resolve Safe_oid_filter : safe.
Lemma Safe_oid_filters : Safe parse_tls_extension_oid_filters. Proof. safe_def. Qed.
Lemma Safe_ext_unknown : Safe parse_tls_extension_unknown. Proof. safe_def. Qed.
#[export] Hint Resolve Safe_sni_content Safe_mfl_content Safe_status_content Safe_ec_content Safe_ecpf_content
  Safe_sigalg_content Safe_hb_content Safe_alpn_content Safe_padding_content Safe_sct_content Safe_rsl
  Safe_ticket_content Safe_kso_content Safe_ks_content Safe_psk_content Safe_ed_content Safe_sv_content
  Safe_cookie_content Safe_pskm_content Safe_reneg_content Safe_esni Safe_oid_filters Safe_ext_unknown : safe.
Lemma Safe_ext_content c l : Safe (ext_content c l).
Proof.
  destruct c; cbn [ext_content]; unfold parse_tls_extension_encrypt_then_mac_content,
    parse_tls_extension_extended_master_secret_content, parse_tls_extension_post_handshake_auth_content,
    parse_tls_extension_npn_content; solve_safe.
Qed.
#[export] Hint Resolve Safe_ext_content : safe.
Lemma Safe_dispatch_ext tbl : Safe (dispatch_ext tbl). Proof. safe_def. Qed.
#[export] Hint Resolve Safe_dispatch_ext : safe.
Lemma Safe_ext : Safe parse_tls_extension. Proof. safe_def. Qed.
Lemma Safe_ch_ext : Safe parse_tls_client_hello_extension. Proof. safe_def. Qed.
Lemma Safe_sh_ext : Safe parse_tls_server_hello_extension. Proof. safe_def. Qed.
#[export] Hint Resolve Safe_ext Safe_ch_ext Safe_sh_ext : safe.
Lemma Safe_exts : Safe parse_tls_extensions. Proof. safe_def. Qed.
Lemma Safe_ch_exts : Safe parse_tls_client_hello_extensions. Proof. safe_def. Qed.
Lemma Safe_sh_exts : Safe parse_tls_server_hello_extensions. Proof. safe_def. Qed.
Lemma Safe_x_sni : Safe parse_tls_extension_sni. Proof. safe_def. Qed.
Lemma Safe_x_mfl : Safe parse_tls_extension_max_fragment_length. Proof. safe_def. Qed.
Lemma Safe_x_status : Safe parse_tls_extension_status_request. Proof. safe_def. Qed.
Lemma Safe_x_ec : Safe parse_tls_extension_elliptic_curves. Proof. safe_def. Qed.
Lemma Safe_x_ecpf : Safe parse_tls_extension_ec_point_formats. Proof. safe_def. Qed.
Lemma Safe_x_sigalg : Safe parse_tls_extension_signature_algorithms. Proof. safe_def. Qed.
Lemma Safe_x_hb : Safe parse_tls_extension_heartbeat. Proof. safe_def. Qed.
(* these two pass their content parser to [with_len] unapplied, so [Safe_empty_only] does not match until it is unfolded *)
Lemma Safe_x_etm : Safe parse_tls_extension_encrypt_then_mac.
Proof. unfold parse_tls_extension_encrypt_then_mac, parse_tls_extension_encrypt_then_mac_content. solve_safe. Qed.
Lemma Safe_x_ems : Safe parse_tls_extension_extended_master_secret.
Proof. unfold parse_tls_extension_extended_master_secret, parse_tls_extension_extended_master_secret_content. solve_safe. Qed.
Lemma Safe_x_ticket : Safe parse_tls_extension_session_ticket. Proof. safe_def. Qed.
Lemma Safe_x_ks : Safe parse_tls_extension_key_share. Proof. safe_def. Qed.
Lemma Safe_x_psk : Safe parse_tls_extension_pre_shared_key. Proof. safe_def. Qed.
Lemma Safe_x_ed : Safe parse_tls_extension_early_data. Proof. safe_def. Qed.
Lemma Safe_x_sv : Safe parse_tls_extension_supported_versions. Proof. safe_def. Qed.
Lemma Safe_x_cookie : Safe parse_tls_extension_cookie. Proof. safe_def. Qed.
Lemma Safe_x_pskm : Safe parse_tls_extension_psk_key_exchange_modes. Proof. safe_def. Qed.

(* src/tls_dh.rs, tls_ec.rs, tls_sign_hash.rs, certificate_transparency.rs *)
Lemma Safe_dh : Safe parse_dh_params. Proof. safe_def. Qed.
Lemma Safe_ec_point : Safe parse_ec_point. Proof. safe_def. Qed.
Lemma Safe_ec_curve : Safe parse_ec_curve. Proof. safe_def. Qed.
#[export] Hint Resolve Safe_dh Safe_ec_point Safe_ec_curve : safe.
Lemma Safe_explicit_prime : Safe parse_explicit_prime. Proof. safe_def. Qed.
#[export] Hint Resolve Safe_explicit_prime : safe.
Lemma Safe_ecpc t : Safe (parse_ec_parameters_content t). Proof. safe_def. Qed.
#[export] Hint Resolve Safe_ecpc : safe.
Lemma Safe_ec_parameters : Safe parse_ec_parameters. Proof. safe_def. Qed.
#[export] Hint Resolve Safe_ec_parameters : safe.
Lemma Safe_ecdh : Safe parse_ecdh_params. Proof. safe_def. Qed.
Lemma Safe_ds_old : Safe parse_digitally_signed_old. Proof. safe_def. Qed.
Lemma Safe_ds : Safe parse_digitally_signed. Proof. safe_def. Qed.
#[export] Hint Resolve Safe_ecdh Safe_ds_old Safe_ds : safe.
Lemma Safe_content_and_signature T (f : P T) ext : Safe f -> Safe (parse_content_and_signature f ext).
Proof. intros Hf. unfold parse_content_and_signature. solve_safe. Qed.
Lemma Safe_ct_ext : Safe parse_ct_extensions. Proof. safe_def. Qed.
#[export] Hint Resolve Safe_ct_ext : safe.
Lemma Safe_sct_c : Safe parse_ct_signed_certificate_timestamp_content. Proof. safe_def. Qed.
#[export] Hint Resolve Safe_sct_c : safe.
Lemma Safe_sct : Safe parse_ct_signed_certificate_timestamp. Proof. safe_def. Qed.
#[export] Hint Resolve Safe_sct : safe.
Lemma Safe_sct_list : Safe parse_ct_signed_certificate_timestamp_list. Proof. safe_def. Qed.

(* src/dtls.rs *)
Lemma Safe_dhdr : Safe parse_dtls_record_header. Proof. safe_def. Qed.
Lemma Safe_dfrag : Safe parse_dtls_fragment. Proof. safe_def. Qed.
Lemma Safe_dch : Safe parse_dtls_client_hello. Proof. safe_def. Qed.
Lemma Safe_dhvr : Safe parse_dtls_hello_verify_request. Proof. safe_def. Qed.
#[export] Hint Resolve Safe_dhdr Safe_dfrag Safe_dch Safe_dhvr : safe.
Lemma Safe_dtls_hs_body b l : Safe (dtls_hs_body b l). Proof. destruct b; cbn [dtls_hs_body]; solve_safe. Qed.
#[export] Hint Resolve Safe_dtls_hs_body : safe.
Lemma Safe_dmsg_hs : Safe parse_dtls_message_handshake. Proof. safe_def. Qed.
Lemma Safe_dccs : Safe parse_dtls_message_changecipherspec. Proof. safe_def. Qed.
Lemma Safe_dalert : Safe parse_dtls_message_alert. Proof. safe_def. Qed.
#[export] Hint Resolve Safe_dmsg_hs Safe_dccs Safe_dalert : safe.
Lemma Safe_drec_body b : Safe (dtls_rec_body b). Proof. destruct b; cbn [dtls_rec_body]; solve_safe. Qed.
#[export] Hint Resolve Safe_drec_body : safe.
Lemma Safe_dwith_header h : Safe (parse_dtls_record_with_header h). Proof. safe_def. Qed.
#[export] Hint Resolve Safe_dwith_header : safe.
Lemma Safe_dplain : Safe parse_dtls_plaintext_record. Proof. safe_def. Qed.
#[export] Hint Resolve Safe_dplain : safe.
Lemma Safe_dplains : Safe parse_dtls_plaintext_records. Proof. safe_def. Qed.
(* the entry points that no other parser calls, for the walk over the list of public parsers (PublicSafe.v) *)
#[export] Hint Resolve Safe_exts Safe_ch_exts Safe_sh_exts Safe_x_sni Safe_x_mfl Safe_x_status Safe_x_ec Safe_x_ecpf
  Safe_x_sigalg Safe_x_hb Safe_x_etm Safe_x_ems Safe_x_ticket Safe_x_ks Safe_x_psk Safe_x_ed Safe_x_sv Safe_x_cookie
  Safe_x_pskm Safe_content_and_signature Safe_sct_list Safe_dplains : safe.
