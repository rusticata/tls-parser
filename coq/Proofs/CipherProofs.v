(* C12: the dumped cipher registry against the text table and the frozen IANA rows, as finite maps keyed by id and by
   name; the general theorems are over any rows, the obligations over the regenerated ones. *)
From Coq Require Import Bool Lia.
From TlsModel Require Import CipherDump CipherTxt CipherSpec Iana2026 Ciphers FinMapLemmas.
Import ListNotations.

(* the ten registry columns *)
Definition core (r : cipher_row) : cipher_row :=
  mkRow (c_id r) (c_name r) (c_kx r) (c_au r) (c_enc r) (c_mode r) (c_enc_size r) (c_mac r) (c_mac_size r) (c_prf r) 0 0 0.
Definition row_eqb (a b : cipher_row) : bool :=
  (c_id a =? c_id b) && String.eqb (c_name a) (c_name b) && TlsCipherKx_beq (c_kx a) (c_kx b) &&
  TlsCipherAu_beq (c_au a) (c_au b) && TlsCipherEnc_beq (c_enc a) (c_enc b) &&
  TlsCipherEncMode_beq (c_mode a) (c_mode b) && (c_enc_size a =? c_enc_size b) &&
  TlsCipherMac_beq (c_mac a) (c_mac b) && (c_mac_size a =? c_mac_size b) && TlsPRF_beq (c_prf a) (c_prf b) &&
  (c_impl_key_size a =? c_impl_key_size b) && (c_impl_block_size a =? c_impl_block_size b) &&
  (c_impl_mac_length a =? c_impl_mac_length b).
Lemma row_eqb_eq a b : row_eqb a b = true -> a = b.
Proof.
  destruct a, b; unfold row_eqb; cbn. rewrite !andb_true_iff, !N.eqb_eq, String.eqb_eq. intros H; decompose [and] H; subst.
  f_equal; [apply internal_TlsCipherKx_dec_bl | apply internal_TlsCipherAu_dec_bl | apply internal_TlsCipherEnc_dec_bl
           | apply internal_TlsCipherEncMode_dec_bl | apply internal_TlsCipherMac_dec_bl | apply internal_TlsPRF_dec_bl]; assumption.
Qed.

Definition spec_rows : list cipher_row := match interp_all txt_rows with Some l => l | None => [] end.
Definition impl_core : list cipher_row := map core impl_rows.

Definition exact_ok : bool :=
  match interp_all txt_rows with Some _ => true | None => false end &&
  subsetb row_eqb impl_core spec_rows && subsetb row_eqb spec_rows impl_core &&
  nodupN (map c_id impl_core) && nodupN (map c_id spec_rows).

(* the shape of [exact_ok] with its tables as variables; [parsed] stands for the test that the text table was read, so
   that `apply same_rows` matches the unfolded obligation without evaluating anything *)
Lemma same_rows (parsed : bool) (x y : list cipher_row) :
  parsed && subsetb row_eqb x y && subsetb row_eqb y x && nodupN (map c_id x) && nodupN (map c_id y) = true ->
  forall id, lookup c_id id x = lookup c_id id y.
Proof. rewrite !andb_true_iff. intros [[[[_ H1] H2] H3] H4]. exact (lookup_agree c_id row_eqb row_eqb_eq x y H1 H2 H3 H4). Qed.

Theorem exact : exact_ok = true ->
  forall id, lookup c_id id impl_core = lookup c_id id spec_rows.
Proof. unfold exact_ok. apply same_rows. Qed.

Lemma lookup_map_core id l : lookup c_id id (map core l) = option_map core (find_id id l).
Proof.
  unfold lookup, find_id. induction l as [|r t IH]; cbn; [reflexivity|].
  destruct (c_id r =? id); [reflexivity | exact IH].
Qed.

Definition iana_kept_ok : bool := subsetb row_eqb iana2026 impl_core.
Theorem iana_kept : iana_kept_ok = true -> forall r, In r iana2026 -> In r impl_core.
Proof. exact (subsetb_In row_eqb row_eqb_eq iana2026 impl_core). Qed.

Definition opt_id_is (o : option N) (id : N) : bool := match o with Some x => x =? id | None => false end.
Definition is_some {A} (o : option A) : bool := match o with Some _ => true | None => false end.
Definition route_entry_ok (rows : list cipher_row) (e : N * list (option N)) : bool :=
  (N.of_nat (length (snd e)) =? 4) && forallb (fun o => opt_id_is o (fst e)) (snd e) && is_some (find_id (fst e) rows).

Lemma find_id_some id rows r : find_id id rows = Some r -> In r rows /\ c_id r = id.
Proof. exact (lookup_In c_id id rows r). Qed.

Lemma assoc_routes_In id l rs : assoc_routes id l = Some rs -> In (id, rs) l.
Proof.
  induction l as [|[k v] t IH]; cbn [assoc_routes]; [discriminate|].
  destruct (N.eqb_spec k id) as [->|]; [intros [= ->]; left; reflexivity | right; auto].
Qed.

(* over any rows and route table: every listed id has four routes that all return it and is a row, and
   every row is listed *)
Lemma routes_gen rows rts id k :
  forallb (route_entry_ok rows) rts = true ->
  forallb (fun r => is_some (assoc_routes (c_id r) rts)) rows = true -> (k < 4)%nat ->
  match assoc_routes id rts with Some rs => nth k rs None | None => None end =
  match find_id id rows with Some r => Some (c_id r) | None => None end.
Proof.
  rewrite !forallb_forall. intros H1 H2 Hk. destruct (assoc_routes id rts) as [rs|] eqn:E.
  - apply assoc_routes_In, H1 in E. unfold route_entry_ok in E; cbn [fst snd] in E.
    rewrite !andb_true_iff, N.eqb_eq, forallb_forall in E. destruct E as [[Hl Hrs] Hr].
    destruct (find_id id rows) as [r|] eqn:Er; [|discriminate]. apply find_id_some in Er as [_ ->].
    assert (Hin : In (nth k rs None) rs) by (apply nth_In; lia). apply Hrs in Hin.
    destruct (nth k rs None); [apply N.eqb_eq in Hin; now subst | discriminate].
  - destruct (find_id id rows) as [r|] eqn:Er; [|reflexivity].
    apply find_id_some in Er as [Hin <-]. apply H2 in Hin. rewrite E in Hin. discriminate.
Qed.

Definition routes_ok : bool :=
  forallb (route_entry_ok impl_rows) impl_routes &&
  forallb (fun r => is_some (assoc_routes (c_id r) impl_routes)) impl_rows &&
  (N.of_nat (length impl_routes) + impl_all_none_count =? 65536) &&
  nodupN (map fst impl_routes) && forallb (fun e => fst e <? 65536) impl_routes &&
  (impl_len =? N.of_nat (length impl_rows)) && (N.of_nat (length impl_values_order) =? impl_len) &&
  nodupN impl_values_order &&
  forallb (fun id => is_some (find_id id impl_rows)) impl_values_order.

Theorem routes : routes_ok = true ->
  forall id k, (k < 4)%nat ->
    route k id = match from_id id with Some r => Some (c_id r) | None => None end /\
    (forall r, from_id id = Some r -> c_id r = id).
Proof.
  unfold routes_ok. intros H id k Hk.
  (* only the first two conjuncts matter here; the other seven are counts *)
  do 7 apply andb_prop, proj1 in H. apply andb_prop in H as [H1 H2]. split.
  - exact (routes_gen impl_rows impl_routes id k H1 H2 Hk).
  - intros r Hr. exact (proj2 (find_id_some _ _ _ Hr)).
Qed.

(* names: unique, and from_name is exact for every string *)
Fixpoint nodup_str (l : list string) : bool :=
  match l with [] => true | x :: t => negb (existsb (String.eqb x) t) && nodup_str t end.
Definition names_ok : bool := nodup_str (map c_name values).

Lemma find_name_iff (l : list cipher_row) s r : NoDup (map c_name l) ->
  (find (fun x => String.eqb (c_name x) s) l = Some r <-> In r l /\ c_name r = s).
Proof.
  intros Hnd. split.
  - intros H. apply find_some in H as [H1 H2]. apply String.eqb_eq in H2. auto.
  - intros [Hin <-]. now apply (find_unique c_name String.eqb String.eqb_eq).
Qed.

Theorem names : names_ok = true ->
  NoDup (map c_name values) /\
  forall s r, from_name s = Some r <-> In r values /\ c_name r = s.
Proof.
  unfold names_ok, from_name. generalize values. intros l H.
  assert (Hnd : NoDup (map c_name l)) by (apply (nodupb_NoDup String.eqb String.eqb_refl nodup_str); [reflexivity | exact H]).
  split; [exact Hnd | intros s r; now apply find_name_iff].
Qed.

(* sizes: the code's three functions satisfy the property's rules on every row, and the
   implementation computed the same numbers (dump columns) *)
Definition sizes_ok : bool :=
  forallb (fun r =>
    (enc_key_size r =? c_enc_size r / 8) && (enc_block_size r =? block_spec (c_enc r)) &&
    mac_len_ok r (mac_length r) &&
    (c_impl_key_size r =? enc_key_size r) && (c_impl_block_size r =? enc_block_size r) &&
    (c_impl_mac_length r =? mac_length r)) impl_rows.
Theorem sizes : sizes_ok = true -> forall r, In r impl_rows ->
  enc_key_size r = c_enc_size r / 8 /\ enc_block_size r = block_spec (c_enc r) /\
  mac_len_ok r (mac_length r) = true /\
  c_impl_key_size r = enc_key_size r /\ c_impl_block_size r = enc_block_size r /\ c_impl_mac_length r = mac_length r.
Proof.
  unfold sizes_ok. generalize impl_rows. intros rows. rewrite forallb_forall. intros H r Hr. specialize (H r Hr).
  rewrite !andb_true_iff, !N.eqb_eq in H. tauto.
Qed.

Definition name_tokens_ok : bool := forallb name_rules impl_rows.
Theorem name_tokens : name_tokens_ok = true -> forall r, In r impl_rows -> name_rules r = true.
Proof. unfold name_tokens_ok. exact (proj1 (forallb_forall name_rules impl_rows)). Qed.
