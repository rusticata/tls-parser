(* What boolean tests over lists decide, and lists of rows as finite maps: with unique keys, [find] by key returns
   the row that is in the list, so two lists with the same elements give the same lookups.  Everything is stated
   over variable lists; the regenerated tables are put in by the callers at the last step, so that no proof here
   handles a closed table (a conversion between a table obligation and its unfolding makes the kernel evaluate it). *)
From Coq Require Import NArith List Bool.
Import ListNotations.
Open Scope N_scope.

Lemma forallb_all {A} (l : list A) (f : A -> bool) :
  (forall x, In x l) -> forallb f l = true -> forall x, f x = true.
Proof. intros C H x. exact (proj1 (forallb_forall f l) H x (C x)). Qed.

Lemma existsb_In {A} (eqb : A -> A -> bool) (x : A) l :
  (forall y, eqb x y = true -> x = y) -> existsb (eqb x) l = true -> In x l.
Proof. intros E H. apply existsb_exists in H as [y [Hy He]]. now rewrite (E y He). Qed.

Fixpoint nodupN (l : list N) : bool :=
  match l with [] => true | x :: t => negb (existsb (N.eqb x) t) && nodupN t end.

(* a boolean duplicate check of the shape of [nodupN], over any decidable equality *)
Lemma nodupb_NoDup {K} (eqb : K -> K -> bool) (eqb_refl : forall x, eqb x x = true)
      (nodupb : list K -> bool) l :
  (forall x t, nodupb (x :: t) = negb (existsb (eqb x) t) && nodupb t) -> nodupb l = true -> NoDup l.
Proof.
  intros Hc. induction l as [|x t IH]; [constructor|]. rewrite Hc, andb_true_iff, negb_true_iff.
  intros [H1 H2]. constructor; [|auto]. intros Hin. rewrite <- not_true_iff_false in H1. apply H1.
  apply existsb_exists. eauto.
Qed.
Lemma nodupN_NoDup l : nodupN l = true -> NoDup l.
Proof. apply (nodupb_NoDup N.eqb N.eqb_refl). reflexivity. Qed.

Lemma find_unique {R K} (key : R -> K) (eqb : K -> K -> bool) (eqb_eq : forall x y, eqb x y = true <-> x = y) l r :
  NoDup (map key l) -> In r l -> find (fun x => eqb (key x) (key r)) l = Some r.
Proof.
  induction l as [|x t IH]; cbn [map find In]; [tauto|]. intros Hnd [->|Hin].
  - now rewrite (proj2 (eqb_eq _ _) eq_refl).
  - inversion Hnd as [|? ? Hx Hnd']. destruct (eqb (key x) (key r)) eqn:E; [|auto].
    apply eqb_eq in E. exfalso. apply Hx. rewrite E. now apply in_map.
Qed.

Section FM.
  Context {R : Type} (key : R -> N) (reqb : R -> R -> bool).
  Hypothesis reqb_eq : forall a b, reqb a b = true -> a = b.

  Definition lookup (k : N) (l : list R) : option R := find (fun r => key r =? k) l.
  Definition subsetb (a b : list R) : bool := forallb (fun x => existsb (reqb x) b) a.

  Lemma subsetb_In a b : subsetb a b = true -> forall x, In x a -> In x b.
  Proof.
    unfold subsetb. rewrite forallb_forall. intros H x Hx. exact (existsb_In reqb x b (reqb_eq x) (H x Hx)).
  Qed.

  Lemma lookup_In k l r : lookup k l = Some r -> In r l /\ key r = k.
  Proof. intros H. apply find_some in H as [H1 H2]. apply N.eqb_eq in H2. auto. Qed.

  Lemma In_lookup l r : nodupN (map key l) = true -> In r l -> lookup (key r) l = Some r.
  Proof. intros Hnd. apply (find_unique key N.eqb N.eqb_eq), nodupN_NoDup, Hnd. Qed.

  Lemma lookup_incl a b k r :
    subsetb a b = true -> nodupN (map key b) = true -> lookup k a = Some r -> lookup k b = Some r.
  Proof. intros Hab Hb [Hin <-]%lookup_In. apply In_lookup; [exact Hb | exact (subsetb_In a b Hab r Hin)]. Qed.

  Lemma lookup_agree a b :
    subsetb a b = true -> subsetb b a = true -> nodupN (map key a) = true -> nodupN (map key b) = true ->
    forall k, lookup k a = lookup k b.
  Proof.
    intros Hab Hba Ha Hb k. destruct (lookup k a) as [r|] eqn:E.
    - symmetry. exact (lookup_incl a b k r Hab Hb E).
    - destruct (lookup k b) as [r|] eqn:E'; [|reflexivity]. now rewrite (lookup_incl b a k r Hba Ha E') in E.
  Qed.
End FM.
