(* C05: extensions decode by IANA type; GREASE and unknown types are preserved. *)
From TlsModel Require Import Extensions ExtEnc BytesLemmas RunLemmas ManyLemmas RtTactics Decodes TableLemmas
  HandshakeProofs.
From TlsModel Require Import Dispatch.
From Coq Require Import Lia.

Scheme Equality for ext_content_id.

(* the IANA assignment of the content parsers *)
Definition generic_expected : list (N * ext_content_id) :=
  [(0, XC_sni); (1, XC_max_fragment_length); (5, XC_status_request); (10, XC_elliptic_curves);
   (11, XC_ec_point_formats); (13, XC_signature_algorithms); (15, XC_heartbeat); (16, XC_alpn);
   (18, XC_signed_certificate_timestamp); (21, XC_padding); (22, XC_encrypt_then_mac);
   (23, XC_extended_master_secret); (28, XC_record_size_limit); (35, XC_session_ticket);
   (40, XC_key_share_old); (41, XC_pre_shared_key); (42, XC_early_data); (43, XC_supported_versions);
   (44, XC_cookie); (45, XC_psk_key_exchange_modes); (48, XC_oid_filters); (49, XC_post_handshake_auth);
   (51, XC_key_share); (13172, XC_npn); (65281, XC_renegotiation_info); (65486, XC_encrypted_server_name)].

Definition generic_ok : bool := same_assoc ext_content_id_beq generic_table generic_expected.
(* the specialised dispatchers recognise a subset and agree with the generic one on it *)
Definition sub_table_ok (t : list (N * ext_content_id)) : bool :=
  forallb (fun kv => opt_eqb ext_content_id_beq (assoc_N (fst kv) t) (assoc_N (fst kv) generic_expected)) t.
(* the GREASE test of the source selects exactly the 16 RFC 8701 values: the obligation ranges over all 65536 types *)
Fixpoint range_from (fuel : nat) (start : N) : list N :=
  match fuel with O => [] | S f => start :: range_from f (N.succ start) end.
Definition Nrange (n : N) : list N := range_from (N.to_nat n) 0.
Lemma range_from_In fuel : forall start k, start <= k < start + N.of_nat fuel -> In k (range_from fuel start).
Proof.
  induction fuel as [|f IH]; intros start k H; [lia|]. 
  destruct (N.eq_dec start k) as [->|Hne]; [left; reflexivity | right; apply IH; lia].
Qed.
Lemma Nrange_complete n k : k < n -> In k (Nrange n).
Proof. intros H. unfold Nrange. apply range_from_In. lia. Qed.
Definition grease_ok : bool := forallb (fun t => Bool.eqb (grease_test t) (is_grease_simple t)) (Nrange 65536).
Lemma grease_exact : grease_ok = true -> forall t, t < 65536 -> grease_test t = is_grease_simple t.
Proof.
  unfold grease_ok. rewrite forallb_forall. intros H t Ht. apply Bool.eqb_prop. apply H. apply Nrange_complete. exact Ht.
Qed.
Definition tags_ok : bool :=
  (tag_sni =? 0) && (tag_max_fragment_length =? 1) && (tag_status_request =? 5) && (tag_elliptic_curves =? 10) &&
  (tag_ec_point_formats =? 11) && (tag_signature_algorithms =? 13) && (tag_heartbeat =? 15) &&
  (tag_encrypt_then_mac =? 22) && (tag_extended_master_secret =? 23) && (tag_session_ticket =? 35) &&
  (tag_key_share =? 51) && (tag_pre_shared_key =? 41) && (tag_early_data =? 42) && (tag_supported_versions =? 43) &&
  (tag_cookie =? 44) && (tag_psk_key_exchange_modes =? 45).

Lemma generic_lookup : generic_ok = true -> forall t, assoc_N t generic_table = assoc_N t generic_expected.
Proof. apply same_assoc_eq. exact internal_ext_content_id_dec_bl. Qed.

Lemma sub_table_agrees t : sub_table_ok t = true ->
  forall k c, assoc_N k t = Some c -> assoc_N k generic_expected = Some c.
Proof.
  unfold sub_table_ok. rewrite forallb_forall. intros H k c E. specialize (H _ (assoc_In _ _ _ E)). cbn [fst] in H.
   apply (opt_eqb_eq ext_content_id_beq internal_ext_content_id_dec_bl) in H. now rewrite <- H.
Qed.

Definition lift_ext (rest : slice) (r : res TlsExtension) : res TlsExtension :=
  match r with Ok _ v => Ok rest v | other => other end.

Theorem dispatch_fields tbl t len body o : t < 65536 -> len < 65536 ->
  run (dispatch_ext tbl) (mkS o (u16 t ++ u16 len ++ body)) =
    if lenN body <? len then Incomplete (Size (len - lenN body)) else
    let data := mkS (o + 4) (takeN body len) in
    let rest := mkS (o + 4 + len) (dropN body len) in
    if grease_test t then Ok rest (EGrease t data)
    else match assoc_N t tbl with
         | Some c => lift_ext rest (run (ext_content c len) data)
         | None => Ok rest (EUnknown t data)
         end.
Proof.
  intros Ht Hl. unfold dispatch_ext, length_data. rt_step. rewrite run_bind. rt_step. rewrite run_take_at.
  replace (o + 2 + 2) with (o + 4) by lia.
  destruct (N.ltb_spec (lenN body) len); [reflexivity|].
  destruct (grease_test t); [reflexivity|].
  (* `ext_data.len() as u16` is the declared length *)
  unfold slen; cbn [bytes]. rewrite lenN_takeN, N.mod_small by lia.
  destruct (assoc_N t tbl) as [c|]; [|reflexivity].
  rewrite run_on. destruct (run (ext_content c len) _); reflexivity.
Qed.

Theorem dispatch_char tbl t content rest o : t < 65536 -> lenN content < 65536 ->
  run (dispatch_ext tbl) (mkS o (u16 t ++ vec16 content ++ rest)) =
    if grease_test t then Ok (mkS (o + 4 + lenN content) rest) (EGrease t (mkS (o + 4) content))
    else match assoc_N t tbl with
         | Some c => lift_ext (mkS (o + 4 + lenN content) rest) (run (ext_content c (lenN content)) (mkS (o + 4) content))
         | None => Ok (mkS (o + 4 + lenN content) rest) (EUnknown t (mkS (o + 4) content))
         end.
Proof.
  intros Ht Hc. unfold vec16. rewrite <- app_assoc, dispatch_fields by assumption.
  now rewrite lenN_app_ge, takeN_app_exact, dropN_app_exact.
Qed.

Lemma sni_entry_rt : roundtrips parse_tls_extension_sni_hostname (fun p => u8 (fst p) ++ vec16 (bytes (snd p)))
                       (fun p => fst p < 256 /\ slen (snd p) < 65536) (fun a b => (fst a, ss (snd a)) = (fst b, ss (snd b))).
Proof.
  apply roundtrips_dec. intros [t s] o rest [Ht Hs]. do 2 dec_field.
  now apply dec_ret.
Qed.
Lemma oid_rt : roundtrips parse_tls_oid_filter (fun p => vec8 (bytes (fst p)) ++ vec16 (bytes (snd p)))
                 (fun p => slen (fst p) < 256 /\ slen (snd p) < 65536) (fun a b => (ss (fst a), ss (snd a)) = (ss (fst b), ss (snd b))).
Proof.
  apply roundtrips_dec. intros [a b] o rest [Ha Hb]. do 2 dec_field.
  now apply dec_ret.
Qed.

Definition typed (e : TlsExtension) : Prop := match e with EGrease _ _ | EUnknown _ _ => False | _ => True end.
(* the three kinds of extension value, for `induction e using ext_cases` *)
Lemma ext_cases (Q : TlsExtension -> Prop) :
  (forall e, typed e -> Q e) -> (forall t s, Q (EGrease t s)) -> (forall t s, Q (EUnknown t s)) -> forall e, Q e.
Proof. intros Ht Hg Hu e. destruct e; solve [apply Ht; exact I | apply Hg | apply Hu]. Qed.
Lemma typed_type e : typed e -> iana_type e < 65536 /\ is_grease_simple (iana_type e) = false.
Proof. destruct e; try contradiction; intros _; split; vm_compute; reflexivity. Qed.

(* an inner u16-prefixed block fits its length field when the content it makes up fits its own *)
Lemma vec16_inner b : lenN (vec16 b) < 65536 -> lenN b < 65536.
Proof. rewrite lenN_vec16. lia. Qed.

Lemma all_contents e o : wf_ext e -> typed e ->
  exists c, assoc_N (iana_type e) generic_expected = Some c /\
            accepts (ext_content c (lenN (enc_ext_content e))) (mkS o (enc_ext_content e)) (fun e' => ext_eqv e' e).
Proof.
  intros [Hl Hw] Ht. destruct e; try contradiction;
    (eexists; split; [reflexivity|]); apply dec_accepts; cbn [ext_content]; unfold ext_eqv.
  - (* SNI: empty in the server's answer, else a u16-prefixed list of entries (type byte, u16-prefixed name) *)
    unfold parse_tls_extension_sni_content. apply dec_geti. unfold slen; cbn [bytes]. rewrite app_nil_r.
    destruct l as [|p l']; [now apply dec_ret|]. cbn [enc_ext_content] in *.
    rewrite (proj2 (N.eqb_neq _ 0)) by (rewrite lenN_vec16; lia). apply vec16_inner in Hl.
    dec_field. apply dec_last, dec_map_parser, dec_take; [reflexivity|].
    eapply dec_items; [exact sni_entry_rt | intros v _; rewrite lenN_app, lenN_u8; lia | | exact Hw|].
    + intros j. apply stops_bind_beu_nil. lia.
    + intros l'' HF. apply dec_ret. cbn [strip_ext]. now rewrite HF.
  - (* max fragment length *) now apply dec_pmap, dec_beu.
  - (* status request: empty, or a type byte and the rest of the content *)
    unfold parse_tls_extension_status_request_content. destruct v as [[t s]|]; cbn [enc_ext_content lenN]; [|now apply dec_ret].
    rewrite lenN_app, lenN_u8. destruct (N.eqb_spec (1 + lenN (bytes s)) 0); [lia|].
    do 2 dec_field. now apply dec_ret.
  - (* supported groups: a u16-prefixed block read by the hand-indexed list decoder *)
    apply dec_map_parser, dec_vec; [exact (vec16_inner _ Hl)|]. now apply dec_accepts, dec_pmap, dec_u16_all.
  - (* EC point formats *) now apply dec_pmap, dec_vec.
  - (* signature algorithms: a u16-prefixed list of u16 *)
    apply dec_last, dec_map_parser, dec_vec; [exact (vec16_inner _ Hl)|]. apply dec_u16s; [exact Hw|]. now apply dec_ret.
  - (* record size limit *) now apply dec_pmap, dec_beu.
  - (* session ticket *) now apply dec_pmap, dec_take.
  - (* key share (old) *) now apply dec_pmap, dec_take.
  - (* key share *) now apply dec_pmap, dec_take.
  - (* pre-shared key *) now apply dec_pmap, dec_take.
  - (* early data: empty, or a u32 *)
    unfold parse_tls_extension_early_data_content. destruct v as [x|].
    + now apply dec_pmap, dec_pmap, dec_beu.
    + now apply dec_pmap, dec_ret.
  - (* supported versions: the 2-byte server form for one version, else a u8-prefixed list *)
    destruct Hw as [Hw Hn]. unfold parse_tls_extension_supported_versions_content.
    assert (Hc : lenN (cat u16 l) < 256) by (rewrite lenN_cat_u16; lia).
    destruct l as [|v [|w l']].
    + apply dec_bind, dec_beu; [lia|]. apply dec_last, dec_map_parser, dec_take; [reflexivity|].
      apply dec_accepts, (dec_u16_all []); [constructor|]. now apply dec_ret.
    + inversion Hw. now apply dec_pmap, dec_beu.
    + cbn [enc_ext_content]. set (l := v :: w :: l') in *. rewrite lenN_vec8.
      assert (4 <= lenN (cat u16 l)) by (rewrite lenN_cat_u16; unfold l; cbn [lenN]; lia).
      destruct (N.eqb_spec (1 + lenN (cat u16 l)) 2); [lia|]. apply dec_bind, dec_beu; [exact Hc|].
      destruct (N.eqb_spec (1 + lenN (cat u16 l)) 0); [lia|]. apply dec_last, dec_map_parser, dec_take; [lia|].
      apply dec_accepts, dec_u16_all; [exact Hw|]. now apply dec_ret.
  - (* cookie *) now apply dec_pmap, dec_take.
  - (* PSK exchange modes *) apply dec_last, dec_vec; [exact Hw|]. now apply dec_ret.
  - (* heartbeat *) now apply dec_pmap, dec_beu.
  - (* ALPN: a u16-prefixed list of u8-prefixed names *)
    apply dec_last, dec_map_parser, dec_vec; [exact (vec16_inner _ Hl)|]. apply (dec_vecs 1); [lia | exact Hw|].
    intros l' HF. apply dec_ret. cbn [strip_ext]. now rewrite HF.
  - (* SCT: the list is kept as an optional u16-prefixed blob *)
    apply dec_pmap. destruct v as [s|].
    + now apply dec_opt_some, dec_cmpl, dec_vec; [exact (vec16_inner _ Hl)|].
    + now apply dec_opt_none; [apply stops_bind_beu_nil; lia|].
  - (* padding *) now apply dec_pmap, dec_take.
  - (* encrypt-then-MAC *) now apply dec_ret.
  - (* extended master secret *) now apply dec_ret.
  - (* OID filters: a u16-prefixed list of (u8-prefixed OID, u16-prefixed values) *)
    apply dec_last, dec_map_parser, dec_vec; [exact (vec16_inner _ Hl)|].
    eapply dec_items; [exact oid_rt | intros v _; rewrite lenN_app, lenN_vec8; lia | | exact Hw|].
    + intros j. apply stops_bind_l, stops_bind_beu_nil. lia.
    + intros l' HF. apply dec_ret. cbn [strip_ext]. now rewrite HF.
  - (* post-handshake auth *) now apply dec_ret.
  - (* NPN *) now apply dec_ret.
  - (* renegotiation info *) now apply dec_pmap, dec_vec.
  - (* encrypted SNI: two u16 and three u16-prefixed fields *)
    destruct Hw as (Hc & Hg & Hk & Hr & He). do 5 dec_field. now apply dec_ret.
Qed.

(* What the table of a dispatcher has to say about e for the dispatcher to return e: the content parser that IANA
   assigns to the type of a typed variant, and nothing for the type of an Unknown.  GREASE types are recognised
   before the table is consulted. *)
Definition listed (tbl : list (N * ext_content_id)) (e : TlsExtension) : Prop :=
  match e with
  | EGrease _ _ => True
  | EUnknown t _ => assoc_N t tbl = None
  | _ => assoc_N (iana_type e) tbl = assoc_N (iana_type e) generic_expected
  end.
Lemma listed_typed tbl e : typed e -> listed tbl e <-> assoc_N (iana_type e) tbl = assoc_N (iana_type e) generic_expected.
Proof. destruct e; cbn [typed listed]; tauto. Qed.

Definition wf_any (e : TlsExtension) : Prop :=
  wf_ext e /\ match e with EUnknown t _ => assoc_N t generic_expected = None | _ => True end.
Lemma listed_generic : generic_ok = true -> forall e, wf_any e -> listed generic_table e.
Proof.
  intros Hg e [_ Hu]. induction e as [e Ht|t s|t s] using ext_cases.
  - apply listed_typed, generic_lookup; assumption.
  - exact I.
  - cbn [listed]. now rewrite (generic_lookup Hg).
Qed.

Section Main.
  Hypothesis Hgr : grease_ok = true.
  Variable tbl : list (N * ext_content_id).

  (* GREASE: each of the 16 RFC 8701 code points, any data; everything else not in the table: Unknown *)
  Theorem grease_preserved t data rest o : t < 65536 -> is_grease_simple t = true -> lenN data < 65536 ->
    run (dispatch_ext tbl) (mkS o (u16 t ++ vec16 data ++ rest)) =
      Ok (mkS (o + 4 + lenN data) rest) (EGrease t (mkS (o + 4) data)).
  Proof. intros Ht Hgs Hd. rewrite dispatch_char by assumption. now rewrite (grease_exact Hgr _ Ht), Hgs. Qed.
  Theorem unknown_preserved t data rest o : t < 65536 -> is_grease_simple t = false -> lenN data < 65536 ->
    assoc_N t tbl = None ->
    run (dispatch_ext tbl) (mkS o (u16 t ++ vec16 data ++ rest)) =
      Ok (mkS (o + 4 + lenN data) rest) (EUnknown t (mkS (o + 4) data)).
  Proof. intros Ht Hgs Hd Hn. rewrite dispatch_char by assumption. now rewrite (grease_exact Hgr _ Ht), Hgs, Hn. Qed.

  (* a typed variant through the content parser of its type ([all_contents]); the other two kinds are the two
     theorems above *)
  Theorem dispatch_roundtrip : roundtrips (dispatch_ext tbl) enc_ext (fun e => wf_ext e /\ listed tbl e) ext_eqv.
  Proof.
    intros e rest o [Hw Hl]. unfold enc_ext. rewrite <- !app_assoc.
    replace (o + lenN _) with (o + 4 + lenN (enc_ext_content e)) by solve_off.
    induction e as [e Ht|t s|t s] using ext_cases.
    - destruct (typed_type e Ht) as [H16 Hgs]. apply (listed_typed tbl e Ht) in Hl.
      destruct (all_contents e (o + 4) Hw Ht) as (c & Ec & r & e' & E & He).
      rewrite dispatch_char; [| exact H16 | exact (proj1 Hw)]. rewrite (grease_exact Hgr _ H16), Hgs, Hl, Ec, E.
      exists e'. split; [reflexivity | exact He].
    - destruct Hw as (Hc & H16 & Hgs). rewrite grease_preserved by assumption. eexists. split; reflexivity.
    - destruct Hw as (Hc & H16 & Hgs). rewrite unknown_preserved by assumption. eexists. split; reflexivity.
  Qed.

  Lemma dispatch_ne : nonempty_enc enc_ext (fun e => wf_ext e /\ listed tbl e).
  Proof. intros e _. unfold enc_ext. rewrite lenN_app, lenN_u16. lia. Qed.

  (* a block of extensions: one element per extension, wire order, whole block consumed *)
  Theorem dispatch_list_roundtrip es o : (forall e, In e es -> wf_ext e /\ listed tbl e) ->
    exists es', run (Many0 (Cmpl (dispatch_ext tbl))) (mkS o (cat enc_ext es)) = Ok (mkS (o + lenN (cat enc_ext es)) []) es' /\
                Forall2 ext_eqv es' es.
  Proof.
    intros Hw. destruct (many0_cmpl_rt _ _ _ _ dispatch_roundtrip dispatch_ne es o [] Hw) as [es' [E HF]].
    - apply stops_bind_beu_nil. lia.
    - unfold encs in E. rewrite app_nil_r in E. unfold cat. eauto.
  Qed.
End Main.

Theorem ext_roundtrip (Hg : generic_ok = true) (Hgr : grease_ok = true) e rest o : wf_ext e -> typed e ->
  exists e', run parse_tls_extension (mkS o (enc_ext e ++ rest)) = Ok (mkS (o + lenN (enc_ext e)) rest) e' /\ ext_eqv e' e.
Proof.
  intros Hw Ht. apply (dispatch_roundtrip Hgr). split; [exact Hw|]. apply listed_typed, generic_lookup; assumption.
Qed.

(* the four extensions defined as empty share one content parser, which rejects any data *)
Lemma empty_only_rejects len v i : len <> 0 -> run (empty_only len v) i = Err i KVerify.
Proof. intros H. unfold empty_only. now destruct (N.eqb_spec len 0). Qed.

(* the three dispatchers agree on every type they all recognise: equal table entries give equal results *)
Theorem dispatchers_agree t1 t2 : forall i,
  (forall t, assoc_N t t1 = assoc_N t t2) -> run (dispatch_ext t1) i = run (dispatch_ext t2) i.
Proof.
  intros i H. unfold dispatch_ext. apply run_bind_cong. intros r t _. apply run_bind_cong. intros r' d _. now rewrite H.
Qed.
