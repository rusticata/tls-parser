(* C13 — key-exchange parameters and signatures decode exactly and self-delimit. *)
From TlsModel Require Import Kx KxEnc RunLemmas RtTactics Decodes KxProofs.

Theorem C13_dh_roundtrip : forall d rest o, wf_dh d ->
  exists v', run parse_dh_params (mkS o (enc_dh d ++ rest)) = Ok (mkS (o + lenN (enc_dh d)) rest) v' /\ strip_dh v' = strip_dh d.
Proof. intros d rest o (Hp & Hg & Hy). apply dec_elim. do 3 dec_field. now apply dec_ret. Qed.
Theorem C13_point_roundtrip : forall s rest o, fits8 s ->
  run parse_ec_point (mkS o (vec8 (bytes s) ++ rest)) = Ok (mkS (o + 1 + slen s) rest) (mkS (o + 1) (bytes s)).
Proof. intros s rest o H. apply run_vec8, H. Qed.
Theorem C13_ecparams_roundtrip : forall p rest o, wf_ecparams p ->
  exists v', run parse_ec_parameters (mkS o (enc_ecparams p ++ rest)) =
               Ok (mkS (o + lenN (enc_ecparams p)) rest) v' /\ strip_ecp v' = strip_ecp p.
Proof. exact ecparams_roundtrip. Qed.
Theorem C13_ecdh_roundtrip : forall p rest o, wf_ecdh p ->
  exists v', run parse_ecdh_params (mkS o (enc_ecdh p ++ rest)) =
               Ok (mkS (o + lenN (enc_ecdh p)) rest) v' /\ strip_ecdh v' = strip_ecdh p.
Proof.
  intros p rest o [Hp Hq]. apply dec_elim, dec_bind. eapply dec_weaken; [apply ecparams_roundtrip, Hp|]. intros p' Hp'.
  dec_field. apply dec_ret. unfold strip_ecdh; cbn. now rewrite Hp'.
Qed.
Theorem C13_curve_type_rejected : forall t rest o, t < 256 -> t <> 1 -> t <> 3 ->
  run parse_ec_parameters (mkS o (u8 t ++ rest)) = Err (mkS (o + 1) rest) KSwitch.
Proof.
  intros t rest o Ht H1 H3. unfold parse_ec_parameters. rt_step. unfold parse_ec_parameters_content.
  destruct (N.eqb_spec t 1); [congruence|]. destruct (N.eqb_spec t 3); [congruence|]. reflexivity.
Qed.
Theorem C13_signed_roundtrip : forall d rest o, wf_signed d ->
  exists v', run (if match ds_alg d with Some _ => true | None => false end
                  then parse_digitally_signed else parse_digitally_signed_old) (mkS o (enc_signed d ++ rest)) =
               Ok (mkS (o + lenN (enc_signed d)) rest) v' /\ strip_ds v' = strip_ds d.
Proof. exact signed_roundtrip. Qed.
(* for every content parser and both values of the flag *)
Theorem C13_content_and_signature : forall T (f : P T) ext i,
  run (parse_content_and_signature f ext) i =
    match run f i with
    | Ok r c =>
        match run (if ext then parse_digitally_signed else parse_digitally_signed_old) r with
        | Ok r' s => Ok r' (c, s)
        | Err a k => Err a k | Fail a k => Fail a k
        | Incomplete n => Incomplete n | Panic => Panic | OutOfFuel => OutOfFuel
        end
    | Err a k => Err a k | Fail a k => Fail a k
    | Incomplete n => Incomplete n | Panic => Panic | OutOfFuel => OutOfFuel
    end.
Proof.
  intros T f ext i. unfold parse_content_and_signature. destruct ext; rewrite run_bind; destruct (run f i); try reflexivity; destruct (run _ rem); reflexivity.
Qed.

Print Assumptions C13_dh_roundtrip.
Print Assumptions C13_point_roundtrip.
Print Assumptions C13_ecparams_roundtrip.
Print Assumptions C13_ecdh_roundtrip.
Print Assumptions C13_curve_type_rejected.
Print Assumptions C13_signed_roundtrip.
Print Assumptions C13_content_and_signature.
