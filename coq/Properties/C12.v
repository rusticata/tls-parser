(* C12 — the cipher-suite registry is exact, self-consistent and invertible.
   Each obligation over the regenerated tables is evaluated by the kernel's VM in the proof that uses it. *)
From TlsModel Require Import CipherDump CipherSpec Iana2026 Ciphers FinMapLemmas CipherProofs.

(* for every id (all integers): the compiled registry and scripts/tls-ciphersuites.txt agree on the ten columns *)
Theorem C12_exact : forall id, lookup c_id id impl_core = lookup c_id id spec_rows.
Proof. apply exact. vm_compute. reflexivity. Qed.
Theorem C12_iana_kept : forall r, In r iana2026 -> In r impl_core.
Proof. apply iana_kept. vm_compute. reflexivity. Qed.

(* the four lookup routes agree with from_id on every id, and a returned suite carries the queried id *)
Theorem C12_routes : forall id k, (k < 4)%nat ->
  route k id = match from_id id with Some r => Some (c_id r) | None => None end /\
  (forall r, from_id id = Some r -> c_id r = id).
Proof. apply routes. vm_compute. reflexivity. Qed.

(* names are unique; lookup by name returns exactly the suite with that name, for every string *)
Theorem C12_names :
  NoDup (map c_name values) /\
  forall s r, from_name s = Some r <-> In r values /\ c_name r = s.
Proof. apply names. vm_compute. reflexivity. Qed.

Theorem C12_sizes : forall r, In r impl_rows ->
  enc_key_size r = c_enc_size r / 8 /\ enc_block_size r = block_spec (c_enc r) /\
  mac_len_ok r (mac_length r) = true /\
  c_impl_key_size r = enc_key_size r /\ c_impl_block_size r = enc_block_size r /\ c_impl_mac_length r = mac_length r.
Proof. apply sizes. vm_compute. reflexivity. Qed.

Theorem C12_name_tokens : forall r, In r impl_rows -> name_rules r = true.
Proof. apply name_tokens. vm_compute. reflexivity. Qed.

Example C12_ex : option_map c_name (from_id 49199) = Some "TLS_ECDHE_RSA_WITH_AES_128_GCM_SHA256"%string.
Proof. reflexivity. Qed.

Print Assumptions C12_exact.
Print Assumptions C12_iana_kept.
Print Assumptions C12_routes.
Print Assumptions C12_names.
Print Assumptions C12_sizes.
Print Assumptions C12_name_tokens.
