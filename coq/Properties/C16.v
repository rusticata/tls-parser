(* C16 — the multi-record parsers equal repeated single-record parsing. *)
From TlsModel Require Import Dtls MultiRecordProofs.
From TlsModel Require SafeProofs.

Theorem C16_tls_many : forall i,
  run tls_parser_many i =
    match iterate (fun j => run parse_tls_plaintext j) (bytes i) i with
    | ([], _) => match run parse_tls_plaintext i with
                 | Incomplete _ => Err i KComplete | Err s k => Err s k | _ => Err i KComplete end
    | (recs, rem) => Ok rem recs
    end.
Proof. exact (many1_is_iterate parse_tls_plaintext progress_plaintext SafeProofs.Safe_plaintext). Qed.
Theorem C16_dtls_many : forall i,
  run parse_dtls_plaintext_records i =
    match iterate (fun j => run parse_dtls_plaintext_record j) (bytes i) i with
    | ([], _) => match run parse_dtls_plaintext_record i with
                 | Incomplete _ => Err i KComplete | Err s k => Err s k | _ => Err i KComplete end
    | (recs, rem) => Ok rem recs
    end.
Proof. exact (many1_is_iterate parse_dtls_plaintext_record progress_dtls_plaintext SafeProofs.Safe_dplain). Qed.
Theorem C16_tls_fails_iff_first : forall i,
  (exists r v, run tls_parser_many i = Ok r v) <-> (exists r v, run parse_tls_plaintext i = Ok r v).
Proof. exact (many1_fails_iff parse_tls_plaintext progress_plaintext SafeProofs.Safe_plaintext). Qed.
Theorem C16_dtls_fails_iff_first : forall i,
  (exists r v, run parse_dtls_plaintext_records i = Ok r v) <-> (exists r v, run parse_dtls_plaintext_record i = Ok r v).
Proof. exact (many1_fails_iff parse_dtls_plaintext_record progress_dtls_plaintext SafeProofs.Safe_dplain). Qed.
Theorem C16_alias : forall i, run tls_parser i = run parse_tls_plaintext i.
Proof. reflexivity. Qed.

Print Assumptions C16_tls_many.
Print Assumptions C16_dtls_many.
Print Assumptions C16_tls_fails_iff_first.
Print Assumptions C16_dtls_fails_iff_first.
Print Assumptions C16_alias.
