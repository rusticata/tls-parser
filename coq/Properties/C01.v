(* C01 — parsing never panics or hangs, whatever the bytes (model side).
   [Safe p]: on every input, [run p] is neither Panic (the model of every Rust panic site in the parsers:
   indexing / slicing by hand (Idx), try_into().expect() (PanicP), u16 subtraction (PanicP)) nor OutOfFuel
   (a many0/many1 loop that would not finish within its input: the loops are given the input itself as fuel,
   so OutOfFuel means non-termination by lack of progress).
   Debug/Display formatting and heap use are run-time behaviour of the compiled crate: they are measured on the
   implementation by the correspondence run (see DESIGN.md), supported here by the element-count bound. *)
From TlsModel Require Import Kx Dtls Defrag NomGeneric SafeProofs PublicSafe NoPanicProofs DefragProofs PartialOps
  PartialOpsProofs.
From TlsModel Require Import Consts.

(* every public parser, by Rust name *)
Theorem C01_public_parsers_safe : Forall (fun e => match snd e with PE _ p => forall i, safe (run p i) end) public_parsers.
Proof. exact public_parsers_safe. Qed.
Theorem C01_public_parsers_with_argument_safe :
  Forall (fun e => forall n, match snd e n with PE _ p => forall i, safe (run p i) end) public_parsers_arg.
Proof. exact public_parsers_arg_safe. Qed.
Theorem C01_record_with_header_safe : forall hdr i, safe (run (parse_tls_record_with_header hdr) i).
Proof. exact Safe_with_header. Qed.
Theorem C01_dtls_record_with_header_safe : forall hdr i, safe (run (parse_dtls_record_with_header hdr) i).
Proof. exact Safe_dwith_header. Qed.
Theorem C01_content_and_signature_safe : forall T (f : P T) ext, (forall i, safe (run f i)) ->
  forall i, safe (run (parse_content_and_signature f ext) i).
Proof. exact Safe_content_and_signature. Qed.

(* the debug assertion of the defragmenter is absent from the source read on this run ... *)
Theorem C01_no_debug_assert : DEFRAG_DEBUG_ASSERT = false.
Proof. exact (eq_refl false). Qed.
(* ... and without it no sequence of parse_record / parse_record_nocopy / reset calls, from any state, panics *)
Theorem C01_defragmenter_never_panics : forall ops s,
  Forall (fun e => match fst e with Some (_, r) => safe r | None => True end) (run_ops DEFRAG_DEBUG_ASSERT s ops).
Proof. rewrite C01_no_debug_assert. exact defrag_never_panics. Qed.

(* termination with progress: a repeated parser returns at most one element per consumed byte, so the Vec it
   fills is linear in the input *)
Theorem C01_many0_elements_bounded : forall A (p : P A) i r l, run (Many0 p) i = Ok r l -> lenN l + slen r <= slen i.
Proof. exact many0_count. Qed.
Theorem C01_many1_elements_bounded : forall A (p : P A) i r l, run (Many1 p) i = Ok r l -> lenN l + slen r <= slen i + 1.
Proof. exact many1_count. Qed.
(* the defragmentation buffer stays below 10 MiB on every history of records within the record-length cap *)
Theorem C01_defragmenter_buffer_bounded : forall dbg ops, Forall record_within_cap ops ->
  Forall (fun e => bounded (snd e)) (run_ops dbg d_init ops).
Proof. intros dbg ops. exact (buffer_bound dbg ops d_init init_bounded). Qed.

(* the partial operations of the current source (unwrap / expect / panicking macros / index and slice expressions /
   subtractions on lengths, outside test modules; regenerated inventory, T11) are among the sites the model
   represents by Idx / PanicP: a panic site the model does not know about breaks this obligation *)
Theorem C01_partial_ops_obligation : partial_ops_ok = true.
Proof. vm_compute. reflexivity. Qed.
Theorem C01_partial_ops_modelled : forall f fn k e, In (f, fn, k, e) partial_ops ->
  (count_ops f fn k <= allowed f fn k)%nat /\ (0 < allowed f fn k)%nat.
Proof. exact (partial_ops_modelled C01_partial_ops_obligation). Qed.

Print Assumptions C01_public_parsers_safe.
Print Assumptions C01_public_parsers_with_argument_safe.
Print Assumptions C01_record_with_header_safe.
Print Assumptions C01_dtls_record_with_header_safe.
Print Assumptions C01_content_and_signature_safe.
Print Assumptions C01_no_debug_assert.
Print Assumptions C01_defragmenter_never_panics.
Print Assumptions C01_many0_elements_bounded.
Print Assumptions C01_many1_elements_bounded.
Print Assumptions C01_defragmenter_buffer_bounded.
Print Assumptions C01_partial_ops_obligation.
Print Assumptions C01_partial_ops_modelled.
