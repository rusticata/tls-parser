(* C14 — Signed Certificate Timestamp lists decode per RFC 6962. *)
From TlsModel Require Import Kx KxEnc RunLemmas ManyLemmas RtTactics Decodes KxProofs.
From Coq Require Import Lia.

Theorem C14_sct_roundtrip : forall s rest o, wf_sct s ->
  exists v', run parse_ct_signed_certificate_timestamp (mkS o (enc_sct s ++ rest)) =
               Ok (mkS (o + lenN (enc_sct s)) rest) v' /\ strip_sct v' = strip_sct s.
Proof. exact sct_roundtrip. Qed.
Theorem C14_list_roundtrip : forall l rest o,
  (forall s, In s l -> wf_sct s) -> lenN (cat enc_sct l) < 65536 ->
  exists vs', run parse_ct_signed_certificate_timestamp_list (mkS o (enc_sct_list l ++ rest)) =
                Ok (mkS (o + lenN (enc_sct_list l)) rest) vs' /\ Forall2 sct_eqv vs' l.
Proof.
  intros l rest o Hw Hl. apply dec_elim. dec_field. apply dec_map_parser, dec_take; [reflexivity|].
  apply dec_accepts. eapply dec_many0 with (wf := wf_sct); [| | now apply Forall_forall | | exact (fun _ H => H)].
  - apply roundtrips_dec. intros s o' r' Hs. now apply sct_roundtrip.
  - intros v _. unfold enc_sct. rewrite lenN_vec16. lia.
  - apply stops_bind_l, stops_bind_beu_nil. lia.
Qed.
Theorem C14_list_overlong : forall n body o, n < 65536 -> lenN body < n ->
  run parse_ct_signed_certificate_timestamp_list (mkS o (u16 n ++ body)) = Incomplete (Size (n - lenN body)).
Proof.
  intros n body o Hn Hb. unfold parse_ct_signed_certificate_timestamp_list, map_parser. rt_step.
  now rewrite !run_bind, run_take_short.
Qed.
Theorem C14_entry_overlong : forall n body o, n < 65536 -> lenN body < n ->
  stops parse_ct_signed_certificate_timestamp (mkS o (u16 n ++ body)).
Proof.
  intros n body o Hn Hb. unfold stops, parse_ct_signed_certificate_timestamp, map_parser, length_data.
  now rewrite !run_bind, run_u16_enc, run_take_short.
Qed.

Print Assumptions C14_sct_roundtrip.
Print Assumptions C14_list_roundtrip.
Print Assumptions C14_list_overlong.
Print Assumptions C14_entry_overlong.
