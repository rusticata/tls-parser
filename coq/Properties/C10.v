(* C10 — DTLS records and handshake fragments decode per RFC 6347. *)
From TlsModel Require Import Dtls DtlsEnc RecordSpec RunLemmas RtTactics DtlsProofs MultiRecordProofs.
From Coq Require Import Lia.

Theorem C10_tables : dtls_tables_std = true.
Proof. vm_compute. reflexivity. Qed.

(* 13-byte header: type, version, 16-bit epoch, 48-bit sequence number, 16-bit length, all verbatim *)
Theorem C10_header : forall h rest o, wf_dhdr h ->
  run parse_dtls_record_header (mkS o (enc_dtls_hdr h ++ rest)) = Ok (mkS (o + 13) rest) h.
Proof.
  intros h rest o [Ht [Hv [He [Hs Hl]]]]. unfold parse_dtls_record_header, enc_dtls_hdr. repeat rewrite <- app_assoc.
  do 2 rt_step. rewrite run_bind, run_epoch_seq by assumption. destruct (split_word _ _ He Hs) as [-> ->].
  rt_step. rewrite run_ret. destruct h. f_equal. f_equal. lia.
Qed.

(* framing: the same 2^14+256 cap, TooLarge whatever follows, Incomplete with the exact missing count iff the
   body is a strict prefix, otherwise exactly [length] bytes are handed to the content parser and the rest is
   the remainder *)
Theorem C10_record_char : forall h body o, wf_dhdr h ->
  run parse_dtls_plaintext_record (mkS o (enc_dtls_hdr h ++ body)) =
    if RECORD_CAP <? d_len h then Err (mkS (o + 13) body) KTooLarge
    else if lenN body <? d_len h then Incomplete (Size (d_len h - lenN body))
    else lift_dplain h (mkS (o + 13 + d_len h) (dropN body (d_len h)))
           (run (parse_dtls_record_with_header h) (mkS (o + 13) (takeN body (d_len h)))).
Proof.
  intros h body o Hw. unfold parse_dtls_plaintext_record. rewrite run_bind, C10_header by exact Hw.
  apply run_capped_content.
Qed.
Theorem C10_header_incomplete : forall i, slen i < 13 -> exists n, run parse_dtls_plaintext_record i = Incomplete n.
Proof.
  intros i [n E]%dtls_header_short. exists n. unfold parse_dtls_plaintext_record. now rewrite run_bind, E.
Qed.

(* the 12-byte handshake header on every input that carries the declared fragment *)
Theorem C10_handshake_char : forall ty len mseq foff frag rest o,
  ty < 256 -> len < 16777216 -> mseq < 65536 -> foff < 16777216 -> lenN frag < 16777216 ->
  run parse_dtls_message_handshake (mkS o (enc_dtls_hs ty len mseq foff frag ++ rest)) =
    if (0 <? foff) || (lenN frag <? len)
    then Ok (mkS (o + 12 + lenN frag) rest) (DMHandshake (mkDHS ty len mseq foff (lenN frag) (DFragment (mkS (o + 12) frag))))
    else match assoc_N ty Dispatch.dtls_hs_table with
         | Some b => lift_dbody (mkS (o + 12 + lenN frag) rest) ty len mseq foff (lenN frag)
                       (run (dtls_hs_body b len) (mkS (o + 12) frag))
         | None => Err (mkS (o + 12 + lenN frag) rest) KSwitch
         end.
Proof.
  intros ty len mseq foff frag rest o H1 H2 H3 H4 H5. unfold parse_dtls_message_handshake, enc_dtls_hs. repeat rewrite <- app_assoc.
  do 5 rt_step. rewrite run_bind, run_take_app by reflexivity.
  replace (o + 1 + 3 + 2 + 3 + 3) with (o + 12) by lia.
  destruct ((0 <? foff) || (lenN frag <? len)).
  - now rewrite run_on_ret, run_fragment.
  - destruct (assoc_N ty Dispatch.dtls_hs_table) as [b|]; [apply run_on_ret | reflexivity].
Qed.

Theorem C10_fragment : forall ty len mseq foff frag rest o,
  ty < 256 -> len < 16777216 -> mseq < 65536 -> foff < 16777216 -> lenN frag < 16777216 ->
  0 < foff \/ lenN frag < len ->
  run parse_dtls_message_handshake (mkS o (enc_dtls_hs ty len mseq foff frag ++ rest)) =
    Ok (mkS (o + 12 + lenN frag) rest) (DMHandshake (mkDHS ty len mseq foff (lenN frag) (DFragment (mkS (o + 12) frag)))).
Proof.
  intros ty len mseq foff frag rest o H1 H2 H3 H4 H5 Hf. rewrite C10_handshake_char by assumption.
  replace ((0 <? foff) || (lenN frag <? len)) with true; [reflexivity|].
  symmetry. apply Bool.orb_true_iff. now rewrite !N.ltb_lt.
Qed.

(* ClientHello (cookie 0..255 bytes), HelloVerifyRequest, ServerHello, Certificate, ServerHelloDone, ClientKeyExchange *)
Theorem C10_message_roundtrip : forall b mseq rest o, wf_dbody b -> mseq < 65536 -> lenN (enc_dtls_body b) < 16777216 ->
  exists b', run parse_dtls_message_handshake
               (mkS o (enc_dtls_hs (dbody_type b) (lenN (enc_dtls_body b)) mseq 0 (enc_dtls_body b) ++ rest)) =
             Ok (mkS (o + 12 + lenN (enc_dtls_body b)) rest)
                (DMHandshake (mkDHS (dbody_type b) (lenN (enc_dtls_body b)) mseq 0 (lenN (enc_dtls_body b)) b')) /\
             strip_dbody b' = strip_dbody b.
Proof.
  intros b mseq rest o Hw Hm Hl. assert (Hty : dbody_type b < 256) by (destruct b; cbn; lia).
  rewrite C10_handshake_char by (try assumption; lia). rewrite !N.ltb_irrefl. cbn [orb].
  destruct (dtls_body_rt C10_tables b (o + 12) Hw) as (id & Ea & r & b' & E & Hs). rewrite Ea, E. cbn [lift_dbody]. eauto.
Qed.

(* several records in one datagram: C16_dtls_many *)
Theorem C10_datagram : forall i,
  run parse_dtls_plaintext_records i =
    match iterate (fun j => run parse_dtls_plaintext_record j) (bytes i) i with
    | ([], _) => match run parse_dtls_plaintext_record i with
                 | Incomplete _ => Err i KComplete | Err s k => Err s k | _ => Err i KComplete end
    | (recs, rem) => Ok rem recs
    end.
Proof. exact (many1_is_iterate parse_dtls_plaintext_record progress_dtls_plaintext SafeProofs.Safe_dplain). Qed.

Print Assumptions C10_tables.
Print Assumptions C10_header.
Print Assumptions C10_record_char.
Print Assumptions C10_header_incomplete.
Print Assumptions C10_handshake_char.
Print Assumptions C10_fragment.
Print Assumptions C10_message_roundtrip.
Print Assumptions C10_datagram.
