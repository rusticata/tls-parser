(* C08 — the handshake state machine accepts exactly the documented flows. *)
From TlsModel Require Import Flows StatesProofs.

(* every cell: 25 states x both directions x every message (all alerts, all payloads
   within a kind); obligations over the regenerated tables discharged by computation *)
Lemma cells_ok_true : cells_ok = true.
Proof. vm_compute. reflexivity. Qed.

Theorem C08_cells : forall st m to_server,
  tls_state_transition st m to_server = spec_transition st m to_server.
Proof. exact (cells cells_ok_true (eq_refl WARNING)). Qed.

Theorem C08_sequences : forall l st,
  fold_t tls_state_transition st l = fold_t spec_transition st l.
Proof. exact (sequences cells_ok_true (eq_refl WARNING)). Qed.

(* non-vacuity: every documented flow is accepted end to end by the code's tables *)
Theorem C08_flows_accepted : flows_ok = true.
Proof. exact (eq_refl true). Qed.

Theorem C08_absorbing_invalid : forall m d, tls_state_transition SInvalid m d = Some SInvalid.
Proof. intros m d. rewrite C08_cells. reflexivity. Qed.
Theorem C08_absorbing_encrypted : forall m d, tls_state_transition SSessionEncrypted m d = Some SSessionEncrypted.
Proof. intros m d. rewrite C08_cells. reflexivity. Qed.
Theorem C08_finished_to_invalid : forall m d, tls_state_transition SFinished m d = Some SInvalid.
Proof. intros m d. rewrite C08_cells. reflexivity. Qed.
Theorem C08_alert_rule : forall st sev code d, live st ->
  tls_state_transition st (MkAlert sev code) d = Some (if sev =? 1 then st else SFinished).
Proof. intros st sev code d [H1 [H2 H3]]. rewrite C08_cells. destruct st; try reflexivity; congruence. Qed.
Theorem C08_hello_request_rule : forall st sid d, live st -> st <> SNone ->
  tls_state_transition st (MkHs KHelloRequest sid) d = Some st.
Proof. intros st sid d [H1 [H2 H3]] H4. rewrite C08_cells. destruct st, d; try reflexivity; congruence. Qed.
Theorem C08_hello_request_at_start : forall sid d, tls_state_transition SNone (MkHs KHelloRequest sid) d = None.
Proof. intros sid d. rewrite C08_cells. now destruct d. Qed.
(* each accepted handshake message is an edge of a documented flow in the sender's direction *)
Theorem C08_senders : senders_ok = true.
Proof. exact (eq_refl true). Qed.

Print Assumptions C08_cells.
Print Assumptions C08_sequences.
Print Assumptions C08_flows_accepted.
Print Assumptions C08_absorbing_invalid.
Print Assumptions C08_absorbing_encrypted.
Print Assumptions C08_finished_to_invalid.
Print Assumptions C08_alert_rule.
Print Assumptions C08_hello_request_rule.
Print Assumptions C08_hello_request_at_start.
Print Assumptions C08_senders.
