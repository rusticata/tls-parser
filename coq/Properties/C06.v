(* C06 — the self-delimiting parsers are local and zero-copy.
   (a) append-stability: on an accepted input, appending any bytes leaves the value (and every slice in it,
       address included) unchanged and extends the remainder by exactly those bytes; a decided error stays
       an error of the same kind.  An Incomplete answer (the declared length is not there yet) is unconstrained.
   (b) the remainder is a suffix of the input (every parser of the combinator language).
   (c) provenance: every slice reachable from the returned value is a sub-slice of the input (same bytes at
       the same absolute offset) that ends at or before the start of the remainder: nothing is copied and
       nothing beyond the consumed bytes is referenced.
   (d) the record defragmenter: results of the fast path / parse_record_nocopy are slices of the caller's
       record, results after defragmentation are slices of the internal buffer. *)
From TlsModel Require Import Dispatch Extensions Kx Dtls Defrag NomGeneric ProvGeneric Slices LocalProofs ProvProofs
  DefragProofs.

Theorem C06_stable_plaintext : forall i x,
  (forall r v, run parse_tls_plaintext i = Ok r v -> run parse_tls_plaintext (sapp i x) = Ok (sapp r x) v) /\
  (forall s k, run parse_tls_plaintext i = Err s k -> exists s', run parse_tls_plaintext (sapp i x) = Err s' k).
Proof. exact (stable_decided _ _ Stable_plaintext). Qed.
Theorem C06_provenance_plaintext : forall i r v, run parse_tls_plaintext i = Ok r v ->
  forall s, In s (slices v) -> within i s /\ off s + slen s <= off r.
Proof. exact (prov_top _ _ Prov_plaintext). Qed.
Theorem C06_stable_encrypted : forall i x,
  (forall r v, run parse_tls_encrypted i = Ok r v -> run parse_tls_encrypted (sapp i x) = Ok (sapp r x) v) /\
  (forall s k, run parse_tls_encrypted i = Err s k -> exists s', run parse_tls_encrypted (sapp i x) = Err s' k).
Proof. exact (stable_decided _ _ Stable_encrypted). Qed.
Theorem C06_provenance_encrypted : forall i r v, run parse_tls_encrypted i = Ok r v ->
  forall s, In s (slices v) -> within i s /\ off s + slen s <= off r.
Proof. exact (prov_top _ _ Prov_encrypted). Qed.
Theorem C06_stable_raw_record : forall i x,
  (forall r v, run parse_tls_raw_record i = Ok r v -> run parse_tls_raw_record (sapp i x) = Ok (sapp r x) v) /\
  (forall s k, run parse_tls_raw_record i = Err s k -> exists s', run parse_tls_raw_record (sapp i x) = Err s' k).
Proof. exact (stable_decided _ _ Stable_raw_record). Qed.
Theorem C06_provenance_raw_record : forall i r v, run parse_tls_raw_record i = Ok r v ->
  forall s, In s (slices v) -> within i s /\ off s + slen s <= off r.
Proof. exact (prov_top _ _ Prov_raw). Qed.
Theorem C06_stable_handshake : forall i x,
  (forall r v, run parse_tls_message_handshake i = Ok r v -> run parse_tls_message_handshake (sapp i x) = Ok (sapp r x) v) /\
  (forall s k, run parse_tls_message_handshake i = Err s k -> exists s', run parse_tls_message_handshake (sapp i x) = Err s' k).
Proof. exact (stable_decided _ _ Stable_handshake). Qed.
Theorem C06_provenance_handshake : forall i r v, run parse_tls_message_handshake i = Ok r v ->
  forall s, In s (slices v) -> within i s /\ off s + slen s <= off r.
Proof. exact (prov_top _ _ Prov_message_handshake). Qed.
Theorem C06_stable_extension : forall i x,
  (forall r v, run parse_tls_extension i = Ok r v -> run parse_tls_extension (sapp i x) = Ok (sapp r x) v) /\
  (forall s k, run parse_tls_extension i = Err s k -> exists s', run parse_tls_extension (sapp i x) = Err s' k).
Proof. exact (stable_decided _ _ (Stable_dispatch_ext generic_table)). Qed.
Theorem C06_provenance_extension : forall i r v, run parse_tls_extension i = Ok r v ->
  forall s, In s (slices v) -> within i s /\ off s + slen s <= off r.
Proof. exact (prov_top _ _ Prov_ext). Qed.
Theorem C06_stable_client_hello_extension : forall i x,
  (forall r v, run parse_tls_client_hello_extension i = Ok r v -> run parse_tls_client_hello_extension (sapp i x) = Ok (sapp r x) v) /\
  (forall s k, run parse_tls_client_hello_extension i = Err s k -> exists s', run parse_tls_client_hello_extension (sapp i x) = Err s' k).
Proof. exact (stable_decided _ _ (Stable_dispatch_ext client_table)). Qed.
Theorem C06_provenance_client_hello_extension : forall i r v, run parse_tls_client_hello_extension i = Ok r v ->
  forall s, In s (slices v) -> within i s /\ off s + slen s <= off r.
Proof. exact (prov_top _ _ Prov_ch_ext). Qed.
Theorem C06_stable_server_hello_extension : forall i x,
  (forall r v, run parse_tls_server_hello_extension i = Ok r v -> run parse_tls_server_hello_extension (sapp i x) = Ok (sapp r x) v) /\
  (forall s k, run parse_tls_server_hello_extension i = Err s k -> exists s', run parse_tls_server_hello_extension (sapp i x) = Err s' k).
Proof. exact (stable_decided _ _ (Stable_dispatch_ext server_table)). Qed.
Theorem C06_provenance_server_hello_extension : forall i r v, run parse_tls_server_hello_extension i = Ok r v ->
  forall s, In s (slices v) -> within i s /\ off s + slen s <= off r.
Proof. exact (prov_top _ _ Prov_sh_ext). Qed.
Theorem C06_stable_dh : forall i x,
  (forall r v, run parse_dh_params i = Ok r v -> run parse_dh_params (sapp i x) = Ok (sapp r x) v) /\
  (forall s k, run parse_dh_params i = Err s k -> exists s', run parse_dh_params (sapp i x) = Err s' k).
Proof. exact (stable_decided _ _ Stable_dh). Qed.
Theorem C06_provenance_dh : forall i r v, run parse_dh_params i = Ok r v ->
  forall s, In s (slices v) -> within i s /\ off s + slen s <= off r.
Proof. exact (prov_top _ _ Prov_dh). Qed.
Theorem C06_stable_ec_parameters : forall i x,
  (forall r v, run parse_ec_parameters i = Ok r v -> run parse_ec_parameters (sapp i x) = Ok (sapp r x) v) /\
  (forall s k, run parse_ec_parameters i = Err s k -> exists s', run parse_ec_parameters (sapp i x) = Err s' k).
Proof. exact (stable_decided _ _ Stable_ec_parameters). Qed.
Theorem C06_provenance_ec_parameters : forall i r v, run parse_ec_parameters i = Ok r v ->
  forall s, In s (slices v) -> within i s /\ off s + slen s <= off r.
Proof. exact (prov_top _ _ Prov_ec_parameters). Qed.
Theorem C06_stable_ecdh : forall i x,
  (forall r v, run parse_ecdh_params i = Ok r v -> run parse_ecdh_params (sapp i x) = Ok (sapp r x) v) /\
  (forall s k, run parse_ecdh_params i = Err s k -> exists s', run parse_ecdh_params (sapp i x) = Err s' k).
Proof. exact (stable_decided _ _ Stable_ecdh). Qed.
Theorem C06_provenance_ecdh : forall i r v, run parse_ecdh_params i = Ok r v ->
  forall s, In s (slices v) -> within i s /\ off s + slen s <= off r.
Proof. exact (prov_top _ _ Prov_ecdh). Qed.
Theorem C06_stable_signed : forall i x,
  (forall r v, run parse_digitally_signed i = Ok r v -> run parse_digitally_signed (sapp i x) = Ok (sapp r x) v) /\
  (forall s k, run parse_digitally_signed i = Err s k -> exists s', run parse_digitally_signed (sapp i x) = Err s' k).
Proof. exact (stable_decided _ _ Stable_signed). Qed.
Theorem C06_provenance_signed : forall i r v, run parse_digitally_signed i = Ok r v ->
  forall s, In s (slices v) -> within i s /\ off s + slen s <= off r.
Proof. exact (prov_top _ _ Prov_ds). Qed.
Theorem C06_stable_signed_old : forall i x,
  (forall r v, run parse_digitally_signed_old i = Ok r v -> run parse_digitally_signed_old (sapp i x) = Ok (sapp r x) v) /\
  (forall s k, run parse_digitally_signed_old i = Err s k -> exists s', run parse_digitally_signed_old (sapp i x) = Err s' k).
Proof. exact (stable_decided _ _ Stable_signed_old). Qed.
Theorem C06_provenance_signed_old : forall i r v, run parse_digitally_signed_old i = Ok r v ->
  forall s, In s (slices v) -> within i s /\ off s + slen s <= off r.
Proof. exact (prov_top _ _ Prov_ds_old). Qed.
Theorem C06_stable_sct : forall i x,
  (forall r v, run parse_ct_signed_certificate_timestamp i = Ok r v -> run parse_ct_signed_certificate_timestamp (sapp i x) = Ok (sapp r x) v) /\
  (forall s k, run parse_ct_signed_certificate_timestamp i = Err s k -> exists s', run parse_ct_signed_certificate_timestamp (sapp i x) = Err s' k).
Proof. exact (stable_decided _ _ Stable_sct). Qed.
Theorem C06_provenance_sct : forall i r v, run parse_ct_signed_certificate_timestamp i = Ok r v ->
  forall s, In s (slices v) -> within i s /\ off s + slen s <= off r.
Proof. exact (prov_top _ _ Prov_sct). Qed.
Theorem C06_stable_sct_list : forall i x,
  (forall r v, run parse_ct_signed_certificate_timestamp_list i = Ok r v -> run parse_ct_signed_certificate_timestamp_list (sapp i x) = Ok (sapp r x) v) /\
  (forall s k, run parse_ct_signed_certificate_timestamp_list i = Err s k -> exists s', run parse_ct_signed_certificate_timestamp_list (sapp i x) = Err s' k).
Proof. exact (stable_decided _ _ Stable_sct_list). Qed.
Theorem C06_provenance_sct_list : forall i r v, run parse_ct_signed_certificate_timestamp_list i = Ok r v ->
  forall s, In s (slices v) -> within i s /\ off s + slen s <= off r.
Proof. exact (prov_top _ _ Prov_sct_list). Qed.
Theorem C06_stable_dtls_record : forall i x,
  (forall r v, run parse_dtls_plaintext_record i = Ok r v -> run parse_dtls_plaintext_record (sapp i x) = Ok (sapp r x) v) /\
  (forall s k, run parse_dtls_plaintext_record i = Err s k -> exists s', run parse_dtls_plaintext_record (sapp i x) = Err s' k).
Proof. exact (stable_decided _ _ Stable_dtls_record). Qed.
Theorem C06_provenance_dtls_record : forall i r v, run parse_dtls_plaintext_record i = Ok r v ->
  forall s, In s (slices v) -> within i s /\ off s + slen s <= off r.
Proof. exact (prov_top _ _ Prov_dplain). Qed.
Theorem C06_stable_dtls_handshake : forall i x,
  (forall r v, run parse_dtls_message_handshake i = Ok r v -> run parse_dtls_message_handshake (sapp i x) = Ok (sapp r x) v) /\
  (forall s k, run parse_dtls_message_handshake i = Err s k -> exists s', run parse_dtls_message_handshake (sapp i x) = Err s' k).
Proof. exact (stable_decided _ _ Stable_dtls_handshake). Qed.
Theorem C06_provenance_dtls_handshake : forall i r v, run parse_dtls_message_handshake i = Ok r v ->
  forall s, In s (slices v) -> within i s /\ off s + slen s <= off r.
Proof. exact (prov_top _ _ Prov_dmsg_hs). Qed.

(* the 16 single-purpose extension parsers *)
Theorem C06_stable_tagged_extension_parsers : Forall (fun p => forall i x r v, run p i = Ok r v -> run p (sapp i x) = Ok (sapp r x) v) tagged_parsers.
Proof.
  eapply Forall_impl; [|exact Stable_tagged_parsers]. intros p Hp i x r v. apply (stable_ok _ _ Hp).
Qed.
(* key-exchange parameters followed by a signature, for any stable content parser *)
Theorem C06_stable_content_and_signature : forall T (f : P T) ext,
  Stable f -> forall i x r v, run (parse_content_and_signature f ext) i = Ok r v ->
  run (parse_content_and_signature f ext) (sapp i x) = Ok (sapp r x) v.
Proof. intros T f ext Hf. apply stable_ok, Stable_content_and_signature, Hf. Qed.

(* (b) for every parser term *)
Theorem C06_remainder_is_suffix : forall A (p : P A) i r v, run p i = Ok r v ->
  exists n, n <= slen i /\ r = sdrop i n.
Proof. exact run_suffix. Qed.

(* (d) *)
Theorem C06_defragmenter_provenance : forall dbg s hdr data s' reg rem v,
  parse_record dbg s hdr data = (s', (reg, Ok rem v)) ->
  forall sl, In sl (slices v) ->
    match reg with
    | Caller => within (mkS 0 data) sl /\ off sl + slen sl <= off rem
    | Buffer => within (mkS 0 (d_buf s')) sl /\ off sl + slen sl <= off rem
    end.
Proof.
  intros dbg s hdr data s' reg rem v H sl Hs. pose proof (fun h => prov_top _ _ (Prov_with_header h)) as Hp.
  destruct (d_cur s) as [t|] eqn:Hc.
  - rewrite (parse_record_busy _ _ _ _ _ Hc) in H.
    destruct (dbg && _); [discriminate|]. destruct (negb _); [discriminate|]. destruct (_ <=? _); [discriminate|].
    injection H as <- <- H%map_complete_ok. eapply Hp; eassumption.
  - rewrite (parse_record_idle _ _ _ _ Hc), (nocopy_idle _ _ _ Hc) in H. destruct (_ || _).
    + injection H as _ <- H%map_complete_ok. eapply Hp; eassumption.
    + cbv zeta in H. destruct (needs_more _); [discriminate|]. injection H as _ <- H. eapply Hp; eassumption.
Qed.

(* non-vacuity: a handshake record followed by bytes that look like another record *)
Example C06_ex : exists r v, run parse_tls_plaintext (mkS 0 [x16; x03; x03; x00; x04; x00; x00; x00; x00]) = Ok r v /\
  run parse_tls_plaintext (sapp (mkS 0 [x16; x03; x03; x00; x04; x00; x00; x00; x00]) [x16; x03; x03; x00; x04]) = Ok (sapp r [x16; x03; x03; x00; x04]) v.
Proof. eexists. eexists. split; vm_compute; reflexivity. Qed.

Print Assumptions C06_stable_plaintext.
Print Assumptions C06_provenance_plaintext.
Print Assumptions C06_stable_encrypted.
Print Assumptions C06_provenance_encrypted.
Print Assumptions C06_stable_raw_record.
Print Assumptions C06_provenance_raw_record.
Print Assumptions C06_stable_handshake.
Print Assumptions C06_provenance_handshake.
Print Assumptions C06_stable_extension.
Print Assumptions C06_provenance_extension.
Print Assumptions C06_stable_client_hello_extension.
Print Assumptions C06_provenance_client_hello_extension.
Print Assumptions C06_stable_server_hello_extension.
Print Assumptions C06_provenance_server_hello_extension.
Print Assumptions C06_stable_dh.
Print Assumptions C06_provenance_dh.
Print Assumptions C06_stable_ec_parameters.
Print Assumptions C06_provenance_ec_parameters.
Print Assumptions C06_stable_ecdh.
Print Assumptions C06_provenance_ecdh.
Print Assumptions C06_stable_signed.
Print Assumptions C06_provenance_signed.
Print Assumptions C06_stable_signed_old.
Print Assumptions C06_provenance_signed_old.
Print Assumptions C06_stable_sct.
Print Assumptions C06_provenance_sct.
Print Assumptions C06_stable_sct_list.
Print Assumptions C06_provenance_sct_list.
Print Assumptions C06_stable_dtls_record.
Print Assumptions C06_provenance_dtls_record.
Print Assumptions C06_stable_dtls_handshake.
Print Assumptions C06_provenance_dtls_handshake.
Print Assumptions C06_stable_tagged_extension_parsers.
Print Assumptions C06_stable_content_and_signature.
Print Assumptions C06_remainder_is_suffix.
Print Assumptions C06_defragmenter_provenance.
