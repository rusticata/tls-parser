(* C09 — serializer output parses back to the same value with consistent lengths. *)
From TlsModel Require Import Extensions Serialize ExtEnc HandshakeProofs SerProofs.

(* the type bytes, extension tags and the ChangeCipherSpec byte read from src/tls_serialize.rs *)
Theorem C09_constants : ser_consts_ok = true.
Proof. vm_compute. reflexivity. Qed.
Theorem C09_tables : hs_tables_std = true.
Proof. exact (eq_refl true). Qed.

(* the output IS the RFC encoding of the (normalised) value: hence every emitted length field
   (handshake u24, session id, cipher, compression, extension block) equals the length of what it prefixes *)
Theorem C09_is_rfc_encoding : forall h, supported_hs h = true -> ser_limits h ->
  gen_tls_messagehandshake h = SerOk (enc_handshake (norm_hs h)).
Proof. exact (ser_is_rfc_encoding C09_constants). Qed.
Theorem C09_ccs : gen_tls_message MChangeCipherSpec = SerOk (enc_msg MChangeCipherSpec).
Proof. exact (ser_ccs C09_constants). Qed.

Theorem C09_roundtrip : forall h, supported_hs h = true -> ser_limits h -> wf_hs (norm_hs h) ->
  exists b m', gen_tls_messagehandshake h = SerOk b /\
               run parse_tls_message_handshake (mkS 0 b) = Ok (mkS (0 + lenN b) []) m' /\
               msg_eqv m' (MHandshake (norm_hs h)).
Proof.
  intros h Hs Hl Hw. rewrite (C09_is_rfc_encoding h Hs Hl).
  destruct (handshake_roundtrip C09_tables (norm_hs h) [] 0 Hw) as [m' [E He]]. rewrite app_nil_r in E. eauto.
Qed.
Theorem C09_reserialize_same : forall h, supported_hs h = true -> ser_limits h ->
  lenN (enc_hs_body (norm_hs h)) < 16777216 ->
  gen_tls_messagehandshake (norm_hs h) = gen_tls_messagehandshake h.
Proof. exact (reserialize_same C09_constants). Qed.

(* records: type, version, u16 length of the real payload, the messages *)
Theorem C09_record : forall ty ver hlen msgs,
  (forall m, In m msgs -> supported_msg m = true /\ msg_limits m) ->
  gen_tls_plaintext (mkPlain (mkHdr ty ver hlen) msgs) = SerOk (enc_record ty ver (cat enc_msg (map norm_msg msgs))).
Proof.
  intros ty ver hlen msgs Hm. unfold gen_tls_plaintext. 
  rewrite (sall_map _ (fun m => enc_msg (norm_msg m)))
    by (intros m Hin; destruct (Hm m Hin); now apply (ser_msg_is_enc C09_constants)).
  unfold cat. rewrite map_map. reflexivity.
Qed.

(* unsupported values: NotYetImplemented, also when only one element of a record is unsupported *)
Theorem C09_nyi : forall h, supported_hs h = false -> gen_tls_messagehandshake h = SerNYI.
Proof. exact ser_nyi. Qed.
Theorem C09_record_nyi : forall ty ver hlen msgs m, In m msgs -> supported_msg m = false ->
  (forall x, In x msgs -> gen_tls_message x <> SerPanic) ->
  gen_tls_plaintext (mkPlain (mkHdr ty ver hlen) msgs) = SerNYI.
Proof.
  intros ty ver hlen msgs m Hin Hu Hp. unfold gen_tls_plaintext. cbn [p_hdr p_msg].
  now rewrite (sall_map_nyi gen_tls_message msgs m Hin (ser_msg_nyi m Hu) Hp).
Qed.
Theorem C09_ext_nyi : forall e, ext_supported e = false -> gen_tls_extension e = SerNYI.
Proof. destruct e; cbn; congruence. Qed.

(* SNI (non-empty), max-fragment-length and supported-groups: the RFC encoding, which C05 decodes back *)
Theorem C09_extensions : forall e, ext_supported e = true -> (match e with ESNI [] => False | _ => True end) ->
  gen_tls_extension e = SerOk (enc_ext e).
Proof.
  destruct (consts C09_constants) as (_ & _ & _ & _ & _ & _ & _ & _ & _ & T0 & T1 & T10).
  destruct e; try discriminate; intros _ Hne; cbn [gen_tls_extension].
  - destruct l as [|p l']; [contradiction|].
    rewrite T0, (sall_map _ (fun p => u8 (fst p) ++ vec16 (bytes (snd p)))) by reflexivity. reflexivity.
  - rewrite T1. reflexivity.
  - rewrite T10. reflexivity.
Qed.

Print Assumptions C09_constants.
Print Assumptions C09_tables.
Print Assumptions C09_is_rfc_encoding.
Print Assumptions C09_ccs.
Print Assumptions C09_roundtrip.
Print Assumptions C09_reserialize_same.
Print Assumptions C09_record.
Print Assumptions C09_nyi.
Print Assumptions C09_record_nyi.
Print Assumptions C09_ext_nyi.
Print Assumptions C09_extensions.
