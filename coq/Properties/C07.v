(* C07 — the record defragmenter equals accumulate-then-parse, with its safety limits. *)
From TlsModel Require Import Defrag Consts DefragProofs.

Theorem C07_cap_value : MAX_RECORD_DATA = 10 * 2 ^ 20.
Proof. exact (eq_refl MAX_RECORD_DATA). Qed.

(* no assertion can fire in parse_record (read from the source on this run) *)
Theorem C07_no_assertion : DEFRAG_DEBUG_ASSERT = false.
Proof. exact (eq_refl false). Qed.

(* any payload split at arbitrary points into k >= 2 successive records of one type (not alert/CCS)
   such that every proper prefix still needs more bytes: k-1 Incomplete answers with
   defrag_in_progress() = true, then exactly the one-shot result of the unsplit payload, parser idle *)
Theorem C07_split : forall ty ver f1 rest s r v,
  ty <> 21 -> ty <> 20 -> d_cur s = None -> rest <> [] ->
  lenN (concat (f1 :: rest)) < MAX_RECORD_DATA ->
  prefixes_need_more ty ver [] (f1 :: rest) ->
  one_shot ty ver (concat (f1 :: rest)) = Ok r v ->
  exists mids,
    run_ops DEFRAG_DEBUG_ASSERT s (frag_ops ty ver (f1 :: rest)) =
      mids ++ [(Some (Buffer, Ok r v), mkD (concat (f1 :: rest)) None)] /\
    length mids = length rest /\ Forall mid_ok mids.
Proof.
  intros ty ver f1 rest s r v H21 H20 Hc Hne.
  apply (split DEFRAG_DEBUG_ASSERT ty ver f1 rest s r v H21 H20 Hc Hne). discriminate.
Qed.

(* a record that parses on its own is returned from the caller's data without buffering *)
Theorem C07_single_record : forall dbg s hdr data r v, d_cur s = None ->
  run (parse_tls_record_with_header hdr) (mkS 0 data) = Ok r v ->
  parse_record dbg s hdr data = (s, (Caller, Ok r v)).
Proof. exact single_record. Qed.

(* refusals while defragmenting, each leaving the state unchanged *)
Theorem C07_foreign_type : forall dbg s t hdr data,
  d_cur s = Some t -> (dbg = true -> d_buf s <> []) -> h_type hdr <> t ->
  parse_record dbg s hdr data = (s, (Caller, Err empty_in KTag)).
Proof. exact foreign_type. Qed.
Theorem C07_too_large : forall dbg s t hdr data,
  d_cur s = Some t -> (dbg = true -> d_buf s <> []) -> h_type hdr = t ->
  MAX_RECORD_DATA <= lenN (d_buf s) + lenN data ->
  parse_record dbg s hdr data = (s, (Caller, Err empty_in KTooLarge)).
Proof. exact too_large. Qed.
Theorem C07_nocopy_refused : forall s hdr data, d_cur s <> None ->
  nocopy s hdr data = (s, (Caller, Fail empty_in KNonEmpty)).
Proof. exact nocopy_refused. Qed.

(* for records within the record-length cap the buffer never reaches 10 MiB, on any history *)
Theorem C07_buffer_bound : forall dbg ops, Forall record_within_cap ops ->
  Forall (fun e => bounded (snd e)) (run_ops dbg d_init ops).
Proof. intros dbg ops. exact (buffer_bound dbg ops d_init init_bounded). Qed.

(* after reset() and after a completed message (both leave d_cur = None) the parser behaves as a
   fresh one: results and defrag_in_progress() of any continuation are those of a new parser *)
Theorem C07_idle_is_fresh : forall dbg s ops, d_cur s = None ->
  observe (run_ops dbg s ops) = observe (run_ops dbg d_init ops).
Proof. exact idle_is_fresh. Qed.
Theorem C07_reset_is_init : forall dbg s, fst (step dbg s OpReset) = d_init.
Proof. reflexivity. Qed.

Print Assumptions C07_cap_value.
Print Assumptions C07_no_assertion.
Print Assumptions C07_split.
Print Assumptions C07_single_record.
Print Assumptions C07_foreign_type.
Print Assumptions C07_too_large.
Print Assumptions C07_nocopy_refused.
Print Assumptions C07_buffer_bound.
Print Assumptions C07_idle_is_fresh.
Print Assumptions C07_reset_is_init.
