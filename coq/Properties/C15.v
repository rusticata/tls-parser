(* C15 — hello accessors and constructors reflect the parsed fields.
   The getters (version, random, session_id, ciphers, comp, ext, get_version, new) are record projections /
   constructors in the model; the tie checks them on the implementation. *)
From TlsModel Require Import Accessors Ciphers BytesLemmas RunLemmas AccessorProofs.
From Coq Require Import Lia.

(* the source computes rand_time from the first four bytes (form read from the trait's provided method) *)
Theorem C15_rand_time_form : rand_time_ok = true.
Proof. exact (eq_refl true). Qed.

Theorem C15_rand_time : forall random,
  rand_time random = if 4 <=? slen random then be_val (takeN (bytes random) 4) else 0.
Proof. exact (rand_time_spec C15_rand_time_form). Qed.
(* the random of a parsed hello has 32 bytes: the first four as a big-endian u32, and the remaining 28 *)
Theorem C15_rand_time_32 : forall random, slen random = 32 ->
  rand_time random = be_val (takeN (bytes random) 4) /\ rand_time random < 2 ^ 32.
Proof.
  intros random H32. rewrite C15_rand_time, H32. split; [reflexivity|].
  pose proof (be_val_bound (takeN (bytes random) 4)) as Hb. rewrite lenN_takeN in Hb by (unfold slen in H32; lia). exact Hb.
Qed.
Theorem C15_rand_bytes_32 : forall random, slen random = 32 ->
  rand_bytes random = sdrop random 4 /\ slen (rand_bytes random) = 28.
Proof.
  intros random H32. unfold rand_bytes. rewrite H32. change (4 <=? 32) with true. cbv iota.
  split; [reflexivity | now rewrite slen_sdrop, H32].
Qed.
Theorem C15_rand_short : forall random, slen random < 4 -> rand_time random = 0 /\ bytes (rand_bytes random) = [].
Proof. exact (rand_short C15_rand_time_form). Qed.
Theorem C15_cipher_map : forall ids,
  cipher_suites ids = map (fun id => option_map c_id (from_id id)) ids /\ length (cipher_suites ids) = length ids.
Proof. exact cipher_map. Qed.

Print Assumptions C15_rand_time_form.
Print Assumptions C15_rand_time.
Print Assumptions C15_rand_time_32.
Print Assumptions C15_rand_bytes_32.
Print Assumptions C15_rand_short.
Print Assumptions C15_cipher_map.
