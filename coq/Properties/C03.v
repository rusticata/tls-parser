(* C03 — a record's payload decodes to exactly its messages, in order. *)
From TlsModel Require Import Record RunLemmas ManyLemmas Wire Strip RecordProofs MessageProofs HandshakeProofs.

(* the record content dispatch read from the source on this run is the expected one
   (20 CCS, 21 alert, 22 handshake: many1(complete(..)); 23: the blob once; 24: complete(heartbeat)) *)
Theorem C03_dispatch : rec_table_std = true.
Proof. exact (eq_refl true). Qed.

(* one or more ChangeCipherSpec bytes / alerts / handshake messages, followed by any tail on which the
   message parser stops (in particular the end of the payload): exactly those messages, in wire order,
   modulo slice offsets; the undecoded tail is the remainder (two-step parsing) *)
Theorem C03_decode_ccs : forall hdr, h_type hdr = 20 -> forall m ms o tail,
  (forall x, In x (m :: ms) -> wf_ccs x) ->
  stops parse_tls_message_changecipherspec (mkS (o + lenN (cat enc_msg (m :: ms))) tail) ->
  exists vs', run (parse_tls_record_with_header hdr) (mkS o (cat enc_msg (m :: ms) ++ tail)) =
                Ok (mkS (o + lenN (cat enc_msg (m :: ms))) tail) vs' /\ msgs_eqv vs' (m :: ms).
Proof. exact (decode_ccs C03_dispatch). Qed.
Theorem C03_decode_alert : forall hdr, h_type hdr = 21 -> forall m ms o tail,
  (forall x, In x (m :: ms) -> wf_alert x) ->
  stops parse_tls_message_alert (mkS (o + lenN (cat enc_msg (m :: ms))) tail) ->
  exists vs', run (parse_tls_record_with_header hdr) (mkS o (cat enc_msg (m :: ms) ++ tail)) =
                Ok (mkS (o + lenN (cat enc_msg (m :: ms))) tail) vs' /\ msgs_eqv vs' (m :: ms).
Proof.
  intros hdr H.
  apply (decode_many1 C03_dispatch hdr RB_many1_alert); [rewrite H; reflexivity | reflexivity | exact alert_rt | exact alert_ne].
Qed.
(* handshake records: for every class of handshake values that round-trips (C04 supplies it) *)
Theorem C03_decode_handshake : forall hdr wf, h_type hdr = 22 ->
  roundtrips parse_tls_message_handshake enc_msg wf msg_eqv -> nonempty_enc enc_msg wf ->
  forall m ms o tail,
  (forall x, In x (m :: ms) -> wf x) ->
  stops parse_tls_message_handshake (mkS (o + lenN (cat enc_msg (m :: ms))) tail) ->
  exists vs', run (parse_tls_record_with_header hdr) (mkS o (cat enc_msg (m :: ms) ++ tail)) =
                Ok (mkS (o + lenN (cat enc_msg (m :: ms))) tail) vs' /\ msgs_eqv vs' (m :: ms).
Proof.
  intros hdr wf H Hrt Hne.
  apply (decode_many1 C03_dispatch hdr RB_many1_handshake); [rewrite H; reflexivity | reflexivity | exact Hrt | exact Hne].
Qed.
(* instantiated with C04's round-trip: every list of well-formed handshake values of the 17 variants *)
Theorem C03_decode_handshake_all : forall (Ht : hs_tables_std = true) hdr, h_type hdr = 22 ->
  forall m ms o tail,
  (forall x, In x (m :: ms) -> wf_hs_msg Ht x) ->
  stops parse_tls_message_handshake (mkS (o + lenN (cat enc_msg (m :: ms))) tail) ->
  exists vs', run (parse_tls_record_with_header hdr) (mkS o (cat enc_msg (m :: ms) ++ tail)) =
                Ok (mkS (o + lenN (cat enc_msg (m :: ms))) tail) vs' /\ msgs_eqv vs' (m :: ms).
Proof.
  intros Ht hdr H. exact (C03_decode_handshake hdr (wf_hs_msg Ht) H (handshake_msgs_rt Ht) (handshake_msgs_ne Ht)).
Qed.
Theorem C03_decode_appdata : forall hdr, h_type hdr = 23 -> forall blob o,
  run (parse_tls_record_with_header hdr) (mkS o blob) =
    Ok (mkS (o + lenN blob) []) [MApplicationData (mkS o blob)].
Proof.
  intros hdr H blob o. rewrite (with_header_type hdr RB_once_appdata C03_dispatch) by (rewrite H; reflexivity).
  cbn [rec_body]. unfold pmap. now rewrite run_bind, run_appdata.
Qed.
Theorem C03_decode_heartbeat : forall hdr, h_type hdr = 24 -> 3 <= h_len hdr -> forall t payload padding o,
  t < 256 -> lenN payload < 65536 ->
  run (parse_tls_record_with_header hdr) (mkS o (u8 t ++ u16 (lenN payload) ++ payload ++ padding)) =
    Ok (mkS (o + 3 + lenN payload) padding) [MHeartbeat t (lenN payload) (mkS (o + 3) payload)].
Proof. exact (decode_heartbeat C03_dispatch). Qed.

Theorem C03_one_step_two_step : forall i,
  run parse_tls_plaintext i =
    match run parse_tls_raw_record i with
    | Ok rest raw => lift_plain (r_hdr raw) rest (run (parse_tls_record_with_header (r_hdr raw)) (r_data raw))
    | Err s k => Err s k | Fail s k => Fail s k
    | Incomplete n => Incomplete n | Panic => Panic | OutOfFuel => OutOfFuel
    end.
Proof. exact one_step_two_step. Qed.

Theorem C03_reject_unknown_type : forall hdr i,
  ~ In (h_type hdr) [20; 21; 22; 23; 24] -> run (parse_tls_record_with_header hdr) i = Err i KSwitch.
Proof. exact (reject_unknown_type C03_dispatch). Qed.
Theorem C03_reject_first_bad : forall hdr i, In (h_type hdr) [20; 21; 22] ->
  (h_type hdr = 20 -> stops parse_tls_message_changecipherspec i) ->
  (h_type hdr = 21 -> stops parse_tls_message_alert i) ->
  (h_type hdr = 22 -> stops parse_tls_message_handshake i) ->
  exists s k, run (parse_tls_record_with_header hdr) i = Err s k.
Proof. exact (reject_first_bad C03_dispatch). Qed.
Theorem C03_reject_empty : forall hdr o, In (h_type hdr) [20; 21; 22] ->
  exists s k, run (parse_tls_record_with_header hdr) (mkS o []) = Err s k.
Proof. exact (reject_empty C03_dispatch). Qed.

Print Assumptions C03_dispatch.
Print Assumptions C03_decode_ccs.
Print Assumptions C03_decode_alert.
Print Assumptions C03_decode_handshake.
Print Assumptions C03_decode_handshake_all.
Print Assumptions C03_decode_appdata.
Print Assumptions C03_decode_heartbeat.
Print Assumptions C03_one_step_two_step.
Print Assumptions C03_reject_unknown_type.
Print Assumptions C03_reject_first_bad.
Print Assumptions C03_reject_empty.
