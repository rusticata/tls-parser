(* C04 — handshake messages decode to the values an RFC encoder wrote; bad ones fail. *)
From TlsModel Require Import Handshake Wire Strip RunLemmas RtTactics HandshakeProofs.
From Coq Require Import Lia.

(* the handshake-type dispatch and the ServerHello version tables read from the source on this run
   are the expected ones (16 type codes; versions 0x0300..0x0303 and 0x7f12) *)
Theorem C04_tables : hs_tables_std = true.
Proof. exact (eq_refl true). Qed.

(* all 17 variants: type byte, 24-bit length, body; the value comes back exactly (modulo where the
   slices point), exactly the message is consumed, whatever follows is the remainder *)
Theorem C04_roundtrip : forall v rest o, wf_hs v ->
  exists m', run parse_tls_message_handshake (mkS o (enc_handshake v ++ rest)) =
               Ok (mkS (o + lenN (enc_handshake v)) rest) m' /\ msg_eqv m' (MHandshake v).
Proof. exact (handshake_roundtrip C04_tables). Qed.

(* never reading beyond the 24-bit length: the body parser sees the isolated body only *)
Theorem C04_confined : forall ht body rest o, ht < 256 -> lenN body < 16777216 ->
  run parse_tls_message_handshake (mkS o (u8 ht ++ u24 (lenN body) ++ body ++ rest)) =
    match assoc_N ht Dispatch.hs_table with
    | Some b => lift_hs (mkS (o + 4 + lenN body) rest) (run (hs_body b (lenN body)) (mkS (o + 4) body))
    | None => Err (mkS (o + 4 + lenN body) rest) KSwitch
    end.
Proof. exact handshake_char. Qed.

(* a message whose declared length exceeds what follows is never a value *)
Theorem C04_reject_cut_off : forall ht hl body o, ht < 256 -> hl < 16777216 -> lenN body < hl ->
  run parse_tls_message_handshake (mkS o (u8 ht ++ u24 hl ++ body)) = Incomplete (Size (hl - lenN body)).
Proof.
  intros ht hl body o Ht Hl Hb. rewrite handshake_fields by assumption.
  destruct (N.ltb_spec (lenN body) hl); [reflexivity | lia].
Qed.
Theorem C04_reject_unknown_type : forall ht body rest o, ht < 256 -> lenN body < 16777216 ->
  assoc_N ht hs_table_expected = None ->
  run parse_tls_message_handshake (mkS o (u8 ht ++ u24 (lenN body) ++ body ++ rest)) =
    Err (mkS (o + 4 + lenN body) rest) KSwitch.
Proof.
  intros ht body rest o Ht Hl Hn. rewrite C04_confined by assumption. now rewrite (proj1 (hs_tables_are C04_tables)), Hn.
Qed.
(* structurally invalid bodies are rejected, whatever the rest of the message is *)
Theorem C04_reject_sid_gt_32 : forall ver random n rest o, ver < 65536 -> lenN random = 32 -> 32 < n < 256 ->
  run parse_tls_handshake_client_hello (mkS o (u16 ver ++ random ++ u8 n ++ rest)) =
    Err (mkS (o + 2 + 32) (u8 n ++ rest)) KVerify.
Proof. intros ver random n rest o. apply hello_sid_gt_32. Qed.
Theorem C04_reject_sid_gt_32_server : forall ver random n rest o has_ext, ver < 65536 -> lenN random = 32 -> 32 < n < 256 ->
  run (parse_tls_server_hello_tlsv12 has_ext) (mkS o (u16 ver ++ random ++ u8 n ++ rest)) =
    Err (mkS (o + 2 + 32) (u8 n ++ rest)) KVerify.
Proof. intros ver random n rest o has_ext. apply hello_sid_gt_32. Qed.
(* cipher-suite list: odd length, or longer than what is left of the body *)
Theorem C04_reject_cipher_len : forall len i, len <> 0 -> (len mod 2 = 1 \/ slen i < len) ->
  run (parse_cipher_suites len) i = Err i KLengthValue.
Proof.
  intros len i H0 Hbad. unfold parse_cipher_suites. destruct (N.eqb_spec len 0); [contradiction|]. rewrite run_checked_idx.
  destruct Hbad as [->|Hs%N.ltb_lt]; [reflexivity|]. now rewrite Hs, Bool.orb_true_r.
Qed.
Theorem C04_reject_comp_len : forall len i, len <> 0 -> slen i < len ->
  run (parse_compressions_algs len) i = Err i KLengthValue.
Proof.
  intros len i H0 Hs%N.ltb_lt. unfold parse_compressions_algs. destruct (N.eqb_spec len 0); [contradiction|].
  now rewrite (run_checked_idx _ len false), Hs.
Qed.
Theorem C04_reject_ticket_lt_4 : forall len i, len < 4 ->
  run (parse_tls_handshake_msg_newsessionticket len) i = Err i KVerify.
Proof.
  intros len i H. unfold parse_tls_handshake_msg_newsessionticket. destruct (N.ltb_spec len 4); [reflexivity | lia].
Qed.
(* ServerHello with a legacy version outside the table *)
Theorem C04_reject_server_hello_version : forall v body o, v < 65536 -> assoc_N v sh_msg_expected = None ->
  run parse_tls_handshake_msg_server_hello (mkS o (u16 v ++ body)) = Err (mkS o (u16 v ++ body)) KTag.
Proof.
  intros v body o Hv Hn. unfold parse_tls_handshake_msg_server_hello. rewrite run_bind, run_peek, run_u16_enc by exact Hv.
  now rewrite (proj1 (proj2 (hs_tables_are C04_tables))), Hn.
Qed.
(* a certificate list or status blob longer than the body is never a value *)
Theorem C04_reject_cert_list_overlong : forall n body o, n < 16777216 -> lenN body < n ->
  run parse_tls_certificate (mkS o (u24 n ++ body)) = Incomplete (Size (n - lenN body)).
Proof.
  intros n body o Hn Hb. unfold parse_tls_certificate, map_parser. rt_step. now rewrite !run_bind, run_take_short.
Qed.
Theorem C04_reject_status_blob_overlong : forall t n body o, t < 256 -> n < 16777216 -> lenN body < n ->
  run parse_tls_handshake_certificatestatus (mkS o (u8 t ++ u24 n ++ body)) = Incomplete (Size (n - lenN body)).
Proof.
  intros t n body o Ht Hn Hb. unfold parse_tls_handshake_certificatestatus, length_data. rt_step. rewrite run_bind. rt_step.
  now rewrite run_take_short.
Qed.

(* non-vacuity: a ClientHello with session id, two suites, one compression method and an empty extension block *)
Example C04_ex : wf_hs (HClientHello (mkCH 771 (mkS 0 (repeat x00 32)) (Some (mkS 0 [x01])) [47; 49199] [0] (Some (mkS 0 [])))).
Proof.
  split; [vm_compute; reflexivity|]. unfold wf_ch. cbn [ch_version ch_random ch_sid ch_ciphers ch_comp ch_ext].
  split; [vm_compute; reflexivity|]. split; [vm_compute; reflexivity|].
  split; [unfold wf_sid; split; vm_compute; discriminate|].
  split; [repeat constructor|]. split; [vm_compute; reflexivity|].
  split; [repeat constructor|]. split; [vm_compute; reflexivity|].
  intros s H; injection H as <-. vm_compute. reflexivity.
Qed.

Print Assumptions C04_tables.
Print Assumptions C04_roundtrip.
Print Assumptions C04_confined.
Print Assumptions C04_reject_cut_off.
Print Assumptions C04_reject_unknown_type.
Print Assumptions C04_reject_sid_gt_32.
Print Assumptions C04_reject_sid_gt_32_server.
Print Assumptions C04_reject_cipher_len.
Print Assumptions C04_reject_comp_len.
Print Assumptions C04_reject_ticket_lt_4.
Print Assumptions C04_reject_server_hello_version.
Print Assumptions C04_reject_cert_list_overlong.
Print Assumptions C04_reject_status_blob_overlong.
