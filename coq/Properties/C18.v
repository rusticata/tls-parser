(* C18 — feature matrix.  What a theorem can carry here: the conditional-compilation table of the source
   (regenerated on every run) contains no feature-dependent code outside the four crate-level items of lib.rs,
   so the parsers are the same program text in every configuration and the (configuration-free) model is the
   model of each of them; unsafe code is forbidden and absent; serialize-without-std is gated by compile_error.
   That the three configurations build, that the gate fires, and Send/Sync of every public type are decided by
   rustc itself during the check (see DESIGN.md); the behavioural clause is tied by running the same cases
   through the model and through the implementation built in each configuration. *)
From Coq Require Import String List NArith.
From TlsModel Require Import Config ConfigProofs.

Theorem C18_config_obligation : config_ok = true.
Proof. vm_compute. reflexivity. Qed.

Theorem C18_no_feature_dependent_parser_code :
  forall file kind cond item, In (file, kind, cond, item) cfg_sites ->
    kind = "cfg" /\
    (cond = "test" \/
     (cond = "tls_parser_verif" /\ file = "tls_records_parser.rs" /\ item = "implTlsRecordsParser{") \/
     (file = "lib.rs" /\ In (cond, item) lib_sites)).
Proof.
  intros file kind cond item Hin. apply site_ok_spec.
  exact (proj1 (config_ok_parts C18_config_obligation) _ Hin).
Qed.

Theorem C18_no_unsafe_code : unsafe_tokens = 0%N /\ In "forbid(unsafe_code)" crate_attrs /\ In "no_std" crate_attrs.
Proof.
  destruct (config_ok_parts C18_config_obligation) as (_ & _ & Hf & Hn & Hu). auto.
Qed.

Theorem C18_serialize_without_std_gated :
  exists item, In ("lib.rs", "cfg", "all(feature=serialize,not(feature=std))", item) cfg_sites /\
               String.prefix "compile_error!(" item = true.
Proof.
  destruct (config_ok_parts C18_config_obligation) as (_ & [s [Hin Hg]] & _).
  apply gate_site_spec in Hg as [item [-> Hp]]. eauto.
Qed.

Print Assumptions C18_config_obligation.
Print Assumptions C18_no_feature_dependent_parser_code.
Print Assumptions C18_no_unsafe_code.
Print Assumptions C18_serialize_without_std_gated.
