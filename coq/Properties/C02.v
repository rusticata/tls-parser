(* C02 — TLS record framing: exact header decode, length cap, streaming contract. *)
From TlsModel Require Import Record RecordSpec Wire RecordProofs Consts.

(* the cap read from the source on this run *)
Theorem C02_cap : MAX_RECORD_LEN = 2 ^ 14 + 256.
Proof. exact cap_value. Qed.

(* complete characterisation, for every input (every byte string at every offset) *)
Theorem C02_raw_spec : forall i, run parse_tls_raw_record i = framing_spec_raw i.
Proof. exact raw_spec. Qed.
Theorem C02_encrypted_spec : forall i, run parse_tls_encrypted i = framing_spec_enc i.
Proof. exact enc_spec. Qed.
Theorem C02_plaintext_char : forall i,
  run parse_tls_plaintext i =
    match framing_spec i with
    | FrIncomplete m => Incomplete (Size m)
    | FrTooLarge s => Err s KTooLarge
    | FrOk h p r => lift_plain h r (run (parse_tls_record_with_header h) p)
    end.
Proof. exact plaintext_char. Qed.

(* what the framing is for every header (256 x 65536 x 65536 field values) and every body:
   TooLarge above the cap whatever follows; Incomplete with the exact missing count iff the
   body is a strict prefix; otherwise exactly [len] payload bytes and the rest untouched *)
Theorem C02_framing_fields : forall ty ver len body o,
  ty < 256 -> ver < 65536 -> len < 65536 ->
  framing_spec (mkS o (u8 ty ++ u16 ver ++ u16 len ++ body)) =
    if RECORD_CAP <? len then FrTooLarge (mkS (o + 5) body)
    else if lenN body <? len then FrIncomplete (len - lenN body)
    else FrOk (mkHdr ty ver len) (mkS (o + 5) (takeN body len)) (mkS (o + 5 + len) (dropN body len)).
Proof. exact framing_fields. Qed.

Theorem C02_roundtrip : forall ty ver payload rest o,
  ty < 256 -> ver < 65536 -> lenN payload <= RECORD_CAP ->
  framing_spec (mkS o (enc_record ty ver payload ++ rest)) =
    FrOk (mkHdr ty ver (lenN payload)) (mkS (o + 5) payload) (mkS (o + 5 + lenN payload) rest).
Proof. exact framing_of_encoding. Qed.

(* obligation over the regenerated record dispatch table: no content parser may
   answer Incomplete on a complete payload (checked by computation on gen/Dispatch.v) *)
Theorem C02_inner_never_incomplete :
  forall hdr d n, run (parse_tls_record_with_header hdr) d <> Incomplete n.
Proof. exact (inner_never_incomplete (eq_refl true)). Qed.

(* hence: Incomplete iff the input is a strict prefix of header+payload, with the exact count missing *)
Theorem C02_plaintext_incomplete_iff : forall i n,
  run parse_tls_plaintext i = Incomplete n <-> exists m, framing_spec i = FrIncomplete m /\ n = Size m.
Proof.
  intros i n. rewrite C02_plaintext_char. destruct (framing_spec i) as [m|s|h p r].
  - split; [intros [= <-]; eauto | intros (m' & [= ->] & ->); reflexivity].
  - split; [discriminate | intros (m' & [=] & _)].
  - split; [|intros (m' & [=] & _)].
    destruct (run (parse_tls_record_with_header h) p) eqn:E; try discriminate.
    now apply C02_inner_never_incomplete in E.
Qed.

Example C02_ex_ok :
  framing_spec (mkS 0 [x16; x03; x03; x00; x02; xaa; xbb; xcc]) =
    FrOk (mkHdr 22 771 2) (mkS 5 [xaa; xbb]) (mkS 7 [xcc]).
Proof. reflexivity. Qed.
Example C02_ex_inc : framing_spec (mkS 0 [x16; x03; x03; x00; x02; xaa]) = FrIncomplete 1.
Proof. reflexivity. Qed.

Print Assumptions C02_cap.
Print Assumptions C02_raw_spec.
Print Assumptions C02_encrypted_spec.
Print Assumptions C02_plaintext_char.
Print Assumptions C02_framing_fields.
Print Assumptions C02_roundtrip.
Print Assumptions C02_inner_never_incomplete.
Print Assumptions C02_plaintext_incomplete_iff.
