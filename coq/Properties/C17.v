(* C17 — registry constants, names and integer conversions. *)
From Coq Require Import Lia.
From TlsModel Require Import NewtypeEnum ConstTables KeyBits IanaConsts NtSpec NtProofs.
From TlsModel Require BytesLemmas.   (* makes [lia] treat division and remainder by a constant *)

(* every named constant has its IANA value, and nothing else is defined (18 registry types;
   obligation over the tables regenerated from the newtype_enum! blocks) *)
Lemma tables_ok_true : tables_ok = true.
Proof. vm_compute. reflexivity. Qed.

Theorem C17_values : forall t, In t nt_all -> forall k v,
  In (k, v) (nt_consts t) <-> In (k, v) (iana_of (nt_name t) iana_all).
Proof. exact (values tables_ok_true). Qed.

(* Display text for every integer (not only the field's domain): the constant's name if
   one is assigned, the numeric fallback otherwise; the fallback contains the value *)
Theorem C17_display : forall t, In t nt_all -> forall n,
  display t n = match lookup_name n (iana_of (nt_name t) iana_all) with
                | Some k => k
                | None => fallback t n
                end.
Proof.
  intros t Ht n. destruct (table_ok_spec t (tables_ok_In tables_ok_true t Ht)) as [H1 [H2 H3]].
  unfold display. now rewrite (first_name_agree _ _ n H1 H2 H3).
Qed.
Theorem C17_fallback_contains_value : forall t n, exists a b, fallback t n = (a ++ sdec n ++ b)%string.
Proof.
  intros t n. exists (nt_name t ++ "(")%string, (" / 0x" ++ shex n ++ ")")%string.
  unfold fallback. now rewrite append_assoc.
Qed.

Theorem C17_sigscheme : forall s, s < 65536 ->
  sig_hash_alg s = s / 256 /\ sig_sign_alg s = s mod 256 /\
  (sig_is_reserved s = true <-> 65024 <= s <= 65279).
Proof.
  intros s Hs. unfold sig_hash_alg, sig_sign_alg, sig_is_reserved.
  (* masking with 255 is [mod 256] and shifting by 8 is [/ 256]; what is left is arithmetic below 65536 *)
  change 255 with (N.ones 8). rewrite !N.land_ones, N.shiftr_div_pow2, Bool.andb_true_iff, N.leb_le, N.ltb_lt.
  change (2 ^ 8) with 256. lia.
Qed.

(* key_bits: the field size for every curve whose (SEC / Brainpool) name states one;
   None for every unregistered group (all integers) *)
Theorem C17_key_bits_named : forall nm g b,
  In (nm, g) iana_NamedGroup -> curve_bits nm = Some b -> key_bits g = Some b.
Proof. exact (key_bits_named iana_NamedGroup key_bits (eq_refl true)). Qed.
Theorem C17_key_bits_unregistered : forall g,
  lookup_name g iana_NamedGroup = None -> key_bits g = None.
Proof. exact (key_bits_unregistered iana_NamedGroup key_bits_arms (eq_refl true)). Qed.

Example C17_ex1 : curve_bits "BrainpoolP512r1tls13" = Some 512. Proof. reflexivity. Qed.
Example C17_ex2 : curve_bits "EcdhX25519" = None. Proof. reflexivity. Qed.
Example C17_ex3 : display nt_TlsAlertSeverity 129 = "TlsAlertSeverity(129 / 0x81)"%string. Proof. reflexivity. Qed.
Example C17_ex4 : In nt_NamedGroup nt_all. Proof. cbn; tauto. Qed.

Print Assumptions C17_values.
Print Assumptions C17_display.
Print Assumptions C17_fallback_contains_value.
Print Assumptions C17_sigscheme.
Print Assumptions C17_key_bits_named.
Print Assumptions C17_key_bits_unregistered.
