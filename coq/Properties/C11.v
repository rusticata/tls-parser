(* C11 — enumerated code points that do not select the structure are accepted and preserved.
   Every statement quantifies over the full wire width of the field (u8: < 256, u16: < 65536);
   the remaining hypotheses are structural (lengths), never about the code point's value. *)
From TlsModel Require Import Record Extensions Kx ExtEnc KxEnc RecordSpec BytesLemmas RunLemmas RtTactics Decodes
  RecordProofs MessageProofs HandshakeProofs ExtProofs ExtObligations KxProofs.
From Coq Require Import Lia.

(* obligations over the tables regenerated from the source on this run *)
Theorem C11_rec_dispatch : rec_table_std = true.
Proof. exact (eq_refl true). Qed.
Theorem C11_hs_tables : hs_tables_std = true.
Proof. exact (eq_refl true). Qed.
Theorem C11_ext_table : generic_ok = true.
Proof. exact generic_ok_true. Qed.
Theorem C11_grease : grease_ok = true.
Proof. exact grease_ok_true. Qed.

(* content type and version of raw / encrypted records *)
Theorem C11_record_type_version : forall ty ver payload rest o, ty < 256 -> ver < 65536 -> lenN payload <= RECORD_CAP ->
  run parse_tls_raw_record (mkS o (enc_record ty ver payload ++ rest)) =
    Ok (mkS (o + 5 + lenN payload) rest) (mkRaw (mkHdr ty ver (lenN payload)) (mkS (o + 5) payload)) /\
  run parse_tls_encrypted (mkS o (enc_record ty ver payload ++ rest)) =
    Ok (mkS (o + 5 + lenN payload) rest) (mkEnc (mkHdr ty ver (lenN payload)) (mkS (o + 5) payload)).
Proof.
  intros ty ver payload rest o Ht Hv Hl. rewrite raw_spec, enc_spec. unfold framing_spec_raw, framing_spec_enc.
  rewrite framing_of_encoding by assumption. split; reflexivity.
Qed.

(* alert level and description *)
Theorem C11_alert : forall s c rest o, s < 256 -> c < 256 ->
  run parse_tls_message_alert (mkS o (u8 s ++ u8 c ++ rest)) = Ok (mkS (o + 2) rest) (MAlert s c).
Proof.
  intros s c rest o Hs Hc. unfold parse_tls_message_alert. do 2 rt_step. rewrite run_ret. f_equal. f_equal. lia.
Qed.

(* heartbeat type, inside a heartbeat record *)
Theorem C11_heartbeat_type : forall hdr, h_type hdr = 24 -> 3 <= h_len hdr -> forall t payload padding o,
  t < 256 -> lenN payload < 65536 ->
  run (parse_tls_record_with_header hdr) (mkS o (u8 t ++ u16 (lenN payload) ++ payload ++ padding)) =
    Ok (mkS (o + 3 + lenN payload) padding) [MHeartbeat t (lenN payload) (mkS (o + 3) payload)].
Proof. exact (decode_heartbeat C11_rec_dispatch). Qed.

(* ClientHello: version, cipher-suite ids, compression ids *)
Theorem C11_client_hello_codes : forall v random sid ciphers comp ext rest o,
  v < 65536 -> Forall (fun x => x < 65536) ciphers -> Forall (fun x => x < 256) comp ->
  slen random = 32 -> wf_sid sid -> 2 * lenN ciphers < 65536 -> lenN comp < 256 -> wf_optext ext ->
  let c := mkCH v random sid ciphers comp ext in
  lenN (enc_hs_body (HClientHello c)) < 16777216 ->
  exists m', run parse_tls_message_handshake (mkS o (enc_handshake (HClientHello c) ++ rest)) =
               Ok (mkS (o + lenN (enc_handshake (HClientHello c))) rest) m' /\ msg_eqv m' (MHandshake (HClientHello c)).
Proof.
  intros v random sid ciphers comp ext rest o Hv Hc Hm Hr Hs Hcl Hml He c Hl.
  apply (handshake_roundtrip C11_hs_tables). split; [exact Hl|]. unfold wf_ch, c. tauto.
Qed.

(* ServerHello: cipher-suite id and compression id (the version selects the structure) *)
Theorem C11_server_hello_codes : forall v random sid cipher comp ext rest o,
  cipher < 65536 -> comp < 256 ->
  In v [768; 769; 770; 771] -> slen random = 32 -> wf_sid sid -> wf_optext ext -> (v = 768 -> ext = None) ->
  let c := mkSH v random sid cipher comp ext in
  lenN (enc_hs_body (HServerHello c)) < 16777216 ->
  exists m', run parse_tls_message_handshake (mkS o (enc_handshake (HServerHello c) ++ rest)) =
               Ok (mkS (o + lenN (enc_handshake (HServerHello c))) rest) m' /\ msg_eqv m' (MHandshake (HServerHello c)).
Proof.
  intros v random sid cipher comp ext rest o Hc Hm Hv Hr Hs He H3 c Hl.
  apply (handshake_roundtrip C11_hs_tables). split; [exact Hl|]. unfold wf_sh, c. tauto.
Qed.

(* CertificateRequest: certificate types, signature algorithms *)
Theorem C11_cert_request_codes : forall types sigs ca rest o,
  Forall (fun x => x < 256) types -> Forall (fun x => x < 65536) sigs ->
  lenN types < 256 -> 2 * lenN sigs < 65536 -> wf_ca ca ->
  let c := mkCR types (Some sigs) ca in
  lenN (enc_hs_body (HCertificateRequest c)) < 16777216 ->
  exists m', run parse_tls_message_handshake (mkS o (enc_handshake (HCertificateRequest c) ++ rest)) =
               Ok (mkS (o + lenN (enc_handshake (HCertificateRequest c))) rest) m' /\
             msg_eqv m' (MHandshake (HCertificateRequest c)).
Proof.
  intros types sigs ca rest o Hty Hsg Htl Hsl Hca c Hl.
  apply (handshake_roundtrip C11_hs_tables). split; [exact Hl|].  unfold wf_cr, c; cbn. tauto.
Qed.

(* certificate-status type, key-update value *)
Theorem C11_cert_status_type : forall t blob rest o, t < 256 -> slen blob + 4 < 16777216 ->
  exists m', run parse_tls_message_handshake (mkS o (enc_handshake (HCertificateStatus t blob) ++ rest)) =
               Ok (mkS (o + lenN (enc_handshake (HCertificateStatus t blob))) rest) m' /\
             msg_eqv m' (MHandshake (HCertificateStatus t blob)).
Proof.
  intros t blob rest o Ht Hb. refine (handshake_roundtrip C11_hs_tables (HCertificateStatus t blob) rest o (conj _ (conj Ht _))); [|lia].
  cbn [enc_hs_body]. rewrite lenN_app, lenN_u8, lenN_vec24. unfold slen in Hb. lia.
Qed.
Theorem C11_key_update : forall v rest o, v < 256 ->
  exists m', run parse_tls_message_handshake (mkS o (enc_handshake (HKeyUpdate v) ++ rest)) =
               Ok (mkS (o + lenN (enc_handshake (HKeyUpdate v))) rest) m' /\ msg_eqv m' (MHandshake (HKeyUpdate v)).
Proof.
  intros v rest o Hv. refine (handshake_roundtrip C11_hs_tables (HKeyUpdate v) rest o (conj _ Hv)).
  cbn [enc_hs_body]. rewrite lenN_u8. lia.
Qed.

(* extension type: every u16 that is neither GREASE nor in the dispatcher's table comes back as
   Unknown(type, data); every GREASE value as Grease(type, data) *)
Theorem C11_extension_type_unknown : forall tbl t data rest o, t < 65536 -> is_grease_simple t = false -> lenN data < 65536 ->
  assoc_N t tbl = None ->
  run (dispatch_ext tbl) (mkS o (u16 t ++ vec16 data ++ rest)) =
    Ok (mkS (o + 4 + lenN data) rest) (EUnknown t (mkS (o + 4) data)).
Proof. exact (unknown_preserved C11_grease). Qed.
Theorem C11_extension_type_grease : forall tbl t data rest o, t < 65536 -> is_grease_simple t = true -> lenN data < 65536 ->
  run (dispatch_ext tbl) (mkS o (u16 t ++ vec16 data ++ rest)) =
    Ok (mkS (o + 4 + lenN data) rest) (EGrease t (mkS (o + 4) data)).
Proof. exact (grease_preserved C11_grease). Qed.

(* named groups, signature schemes, SNI name types, status-request type, PSK modes, EC point formats;
   the two content shapes that occur twice fit the 16-bit length field of the extension *)
Lemma u16_list_fits l : 2 * lenN l + 2 < 65536 -> lenN (vec16 (cat u16 l)) < 65536.
Proof. intros H. rewrite lenN_vec16, lenN_cat_u16. lia. Qed.
Lemma vec8_fits b : lenN b < 256 -> lenN (vec8 b) < 65536.
Proof. intros H. rewrite lenN_vec8. lia. Qed.

Theorem C11_named_groups : forall l rest o, all16 l -> 2 * lenN l + 2 < 65536 ->
  exists e', run parse_tls_extension (mkS o (enc_ext (EEllipticCurves l) ++ rest)) =
               Ok (mkS (o + lenN (enc_ext (EEllipticCurves l))) rest) e' /\ ext_eqv e' (EEllipticCurves l).
Proof.
  intros l rest o Ha Hl. exact (ext_roundtrip C11_ext_table C11_grease (EEllipticCurves l) rest o (conj (u16_list_fits l Hl) Ha) I).
Qed.
Theorem C11_signature_algorithms : forall l rest o, all16 l -> 2 * lenN l + 2 < 65536 ->
  exists e', run parse_tls_extension (mkS o (enc_ext (ESignatureAlgorithms l) ++ rest)) =
               Ok (mkS (o + lenN (enc_ext (ESignatureAlgorithms l))) rest) e' /\ ext_eqv e' (ESignatureAlgorithms l).
Proof.
  intros l rest o Ha Hl. exact (ext_roundtrip C11_ext_table C11_grease (ESignatureAlgorithms l) rest o (conj (u16_list_fits l Hl) Ha) I).
Qed.
Theorem C11_sni_name_types : forall l rest o, Forall (fun p => fst p < 256 /\ slen (snd p) < 65536) l ->
  lenN (enc_ext_content (ESNI l)) < 65536 ->
  exists e', run parse_tls_extension (mkS o (enc_ext (ESNI l) ++ rest)) =
               Ok (mkS (o + lenN (enc_ext (ESNI l))) rest) e' /\ ext_eqv e' (ESNI l).
Proof. intros l rest o Ha Hl. exact (ext_roundtrip C11_ext_table C11_grease (ESNI l) rest o (conj Hl Ha) I). Qed.
Theorem C11_status_request_type : forall t s rest o, t < 256 -> slen s + 1 < 65536 ->
  exists e', run parse_tls_extension (mkS o (enc_ext (EStatusRequest (Some (t, s))) ++ rest)) =
               Ok (mkS (o + lenN (enc_ext (EStatusRequest (Some (t, s))))) rest) e' /\
             ext_eqv e' (EStatusRequest (Some (t, s))).
Proof.
  intros t s rest o Ht Hl. refine (ext_roundtrip C11_ext_table C11_grease (EStatusRequest (Some (t, s))) rest o (conj _ Ht) I).
  cbn [enc_ext_content]. rewrite lenN_app, lenN_u8. unfold slen in Hl. lia.
Qed.
Theorem C11_psk_modes : forall l rest o, lenN l < 256 ->
  exists e', run parse_tls_extension (mkS o (enc_ext (EPskExchangeModes l) ++ rest)) =
               Ok (mkS (o + lenN (enc_ext (EPskExchangeModes l))) rest) e' /\ ext_eqv e' (EPskExchangeModes l).
Proof. intros l rest o Hl. exact (ext_roundtrip C11_ext_table C11_grease (EPskExchangeModes l) rest o (conj (vec8_fits l Hl) Hl) I). Qed.
Theorem C11_ec_point_formats : forall s rest o, slen s < 256 ->
  exists e', run parse_tls_extension (mkS o (enc_ext (EEcPointFormats s) ++ rest)) =
               Ok (mkS (o + lenN (enc_ext (EEcPointFormats s))) rest) e' /\ ext_eqv e' (EEcPointFormats s).
Proof.
  intros s rest o Hl. exact (ext_roundtrip C11_ext_table C11_grease (EEcPointFormats s) rest o (conj (vec8_fits (bytes s) Hl) Hl) I).
Qed.

(* named group of a named_curve ECParameters; hash and signature algorithm bytes; CT version *)
Theorem C11_ec_named_group : forall g rest o, g < 65536 ->
  exists v', run parse_ec_parameters (mkS o (enc_ecparams (mkECP 3 (EcNamedGroup g)) ++ rest)) =
               Ok (mkS (o + lenN (enc_ecparams (mkECP 3 (EcNamedGroup g)))) rest) v' /\
             strip_ecp v' = strip_ecp (mkECP 3 (EcNamedGroup g)).
Proof. intros g rest o Hg. apply dec_elim, (ecparams_roundtrip (mkECP 3 (EcNamedGroup g))). exact (conj eq_refl Hg). Qed.
Theorem C11_signed_algs : forall h s data rest o, h < 256 -> s < 256 -> slen data < 65536 ->
  exists v', run parse_digitally_signed (mkS o (enc_signed (mkDS (Some (h, s)) data) ++ rest)) =
               Ok (mkS (o + lenN (enc_signed (mkDS (Some (h, s)) data))) rest) v' /\
             strip_ds v' = strip_ds (mkDS (Some (h, s)) data).
Proof.
  intros h s data rest o Hh Hs Hd. apply dec_elim, (signed_roundtrip (mkDS (Some (h, s)) data)). exact (conj Hd (conj Hh Hs)).
Qed.
Theorem C11_sct_version : forall v id ts ext h s sig rest o,
  v < 256 -> h < 256 -> s < 256 ->
  slen id = 32 -> ts < 2 ^ 64 -> slen ext < 65536 -> slen sig < 65536 ->
  let sct := mkSCT v id ts ext (mkDS (Some (h, s)) sig) in
  lenN (enc_sct_body sct) < 65536 ->
  exists v', run parse_ct_signed_certificate_timestamp (mkS o (enc_sct sct ++ rest)) =
               Ok (mkS (o + lenN (enc_sct sct)) rest) v' /\ strip_sct v' = strip_sct sct.
Proof.
  intros v id ts ext h s sig rest o Hv Hh Hs Hid Hts He Hsg sct Hl. apply dec_elim, sct_roundtrip.
  unfold wf_sct, wf_signed, fits16, sct.
  repeat split; auto. discriminate.
Qed.

(* non-vacuity: unregistered values in concrete structures *)
Example C11_ex_alert : run parse_tls_message_alert (mkS 0 (u8 77 ++ u8 199 ++ [])) = Ok (mkS 2 []) (MAlert 77 199).
Proof. vm_compute. reflexivity. Qed.
Example C11_ex_groups : exists e', run parse_tls_extension (mkS 0 (enc_ext (EEllipticCurves [65535; 4660]) ++ [])) =
    Ok (mkS 10 []) e' /\ ext_eqv e' (EEllipticCurves [65535; 4660]).
Proof. eexists. split; vm_compute; reflexivity. Qed.

Print Assumptions C11_rec_dispatch.
Print Assumptions C11_hs_tables.
Print Assumptions C11_ext_table.
Print Assumptions C11_grease.
Print Assumptions C11_record_type_version.
Print Assumptions C11_alert.
Print Assumptions C11_heartbeat_type.
Print Assumptions C11_client_hello_codes.
Print Assumptions C11_server_hello_codes.
Print Assumptions C11_cert_request_codes.
Print Assumptions C11_cert_status_type.
Print Assumptions C11_key_update.
Print Assumptions C11_extension_type_unknown.
Print Assumptions C11_extension_type_grease.
Print Assumptions C11_named_groups.
Print Assumptions C11_signature_algorithms.
Print Assumptions C11_sni_name_types.
Print Assumptions C11_status_request_type.
Print Assumptions C11_psk_modes.
Print Assumptions C11_ec_point_formats.
Print Assumptions C11_ec_named_group.
Print Assumptions C11_signed_algs.
Print Assumptions C11_sct_version.
